(* Semantics of the Go integer fragment that harness/cmd/go2coq translates (coq/gen/Translated.v is written in
   terms of these definitions and nothing else).  Definitions and their basic lemmas; stdlib only.

   Every Go integer value is a [Z] inside the range of its type; [ity] names the type.  An operation that can
   leave the range in Go's mathematical reading wraps exactly as the Go specification says ("Integer overflow":
   unsigned arithmetic is modulo 2^n; signed arithmetic wraps two's complement without panic).  Bitwise and/or/xor
   on in-range values stay in range for both signednesses under [Z.land]/[Z.lor]/[Z.lxor] (two's complement
   reading of negative [Z]), so they are used directly.  Division and remainder are translated only when the
   divisor is a non-zero constant (the translator refuses anything else), so the run-time panic of a zero divisor
   is outside the fragment; they truncate toward zero ([Z.quot]/[Z.rem]).  Shifts: the translator accepts only
   unsigned or constant counts, so the run-time panic of a negative count is outside the fragment; a count of the
   width or more gives 0 for [<<] and 0 / -1 for [>>] (arithmetic on signed), which [Z.shiftr] gives by itself.

   A shift by a signed count that is not a constant panics at run time when the count is negative: a function
   holding one is translated as PARTIAL (result [option], [None] = the Go function panics), with the test
   [0 <= count] emitted in front of the statement.  math/bits.RotateLeft64 is [go_rotl64], its documented behaviour
   (rotate left by k mod 64, i.e. right for negative k) written as in the library: s = uint(k) & 63;
   x<<s | x>>(64-s).

   Methods: the receiver's fields that the body mentions are parameters, those it assigns are results.  A field that
   is a slice of integers is a [list Z]: [go_len], [go_nth] (index read), [go_upd] (index write); an index outside
   [0, len) panics in Go, so every indexed statement is preceded by the test and the function is partial; the
   translator admits nothing that could make two slices share an array (no append, reslicing, copies), so the list
   reading is exact.  [for i := range s] counts [i] from 0 to the length evaluated once at entry; its fuel is that
   length + 1.  [break] sets an exit flag that is the first component of the loop state and part of the loop test.
   In a partial function loops are [whileP]: the body may have no value.

   Loops are [while fuel cond body s]: [None] when the fuel runs out with the condition still true; the theorems
   about translated functions show a fuel that suffices and so exclude that case. *)
From Coq Require Import ZArith Bool Lia List.
Import ListNotations.
Open Scope Z_scope.

Inductive ity : Set := I (bits : Z) | U (bits : Z).

Definition wrapU (k z : Z) : Z := z mod 2 ^ k.
Definition wrapS (k z : Z) : Z := (z + 2 ^ (k - 1)) mod 2 ^ k - 2 ^ (k - 1).
Definition go_wrap (t : ity) (z : Z) : Z := match t with I k => wrapS k z | U k => wrapU k z end.
Definition go_bits (t : ity) : Z := match t with I k => k | U k => k end.
Definition go_in (t : ity) (z : Z) : Prop :=
  match t with I k => - 2 ^ (k - 1) <= z < 2 ^ (k - 1) | U k => 0 <= z < 2 ^ k end.

Definition go_add (t : ity) (a b : Z) : Z := go_wrap t (a + b).
Definition go_sub (t : ity) (a b : Z) : Z := go_wrap t (a - b).
Definition go_mul (t : ity) (a b : Z) : Z := go_wrap t (a * b).
Definition go_neg (t : ity) (a : Z) : Z := go_wrap t (- a).
Definition go_not (t : ity) (a : Z) : Z := go_wrap t (Z.lnot a).
Definition go_quo (t : ity) (a b : Z) : Z := go_wrap t (Z.quot a b).
Definition go_rem (t : ity) (a b : Z) : Z := go_wrap t (Z.rem a b).
Definition go_andnot (t : ity) (a b : Z) : Z := go_wrap t (Z.land a (Z.lnot b)).
Definition go_shl (t : ity) (a s : Z) : Z := if go_bits t <=? s then 0 else go_wrap t (a * 2 ^ s).
Definition go_shr (t : ity) (a s : Z) : Z := Z.shiftr a s.
Definition go_cast (t : ity) (a : Z) : Z := go_wrap t a.
Definition go_rotl64 (x k : Z) : Z :=
  let s := k mod 64 in Z.lor (go_shl (U 64) x s) (go_shr (U 64) x (64 - s)).

(* math/bits.OnesCount32/64 of an unsigned value *)
Fixpoint go_popP (p : positive) : Z := match p with xH => 1 | xO q => go_popP q | xI q => 1 + go_popP q end.
Definition go_popcount (x : Z) : Z := match x with Zpos p => go_popP p | _ => 0 end.

Definition go_len (l : list Z) : Z := Z.of_nat (length l).
Definition go_nth (l : list Z) (j : Z) : Z := nth (Z.to_nat j) l 0.
Fixpoint upd_nat (l : list Z) (n : nat) (v : Z) : list Z :=
  match l, n with
  | [], _ => []
  | _ :: t, O => v :: t
  | x :: t, Datatypes.S n' => x :: upd_nat t n' v
  end.
Definition go_upd (l : list Z) (j v : Z) : list Z := upd_nat l (Z.to_nat j) v.

(* make([]T, n): n zero elements.  encoding/binary.BigEndian on a []byte b at offset k (`b[k:]`): Uint16/32 read, PutUint16/32
   store byte(v>>8*i) = v / 2^(8*i) mod 256 (v is an unsigned value, so the shift is the division). The bounds test
   0 <= k /\ k + width <= len(b) is emitted by the translator in front of the statement. *)
Definition go_make (n : Z) : list Z := repeat 0 (Z.to_nat n).
Definition go_be16 (l : list Z) (k : Z) : Z := go_nth l k * 256 + go_nth l (k + 1).
Definition go_be32 (l : list Z) (k : Z) : Z :=
  ((go_nth l k * 256 + go_nth l (k + 1)) * 256 + go_nth l (k + 2)) * 256 + go_nth l (k + 3).
Definition go_be64 (l : list Z) (k : Z) : Z := go_be32 l k * 4294967296 + go_be32 l (k + 4).
Definition go_put_be16 (l : list Z) (k v : Z) : list Z :=
  go_upd (go_upd l k (v / 256 mod 256)) (k + 1) (v mod 256).
Definition go_put_be32 (l : list Z) (k v : Z) : list Z :=
  go_upd (go_upd (go_upd (go_upd l k (v / 16777216 mod 256)) (k + 1) (v / 65536 mod 256)) (k + 2) (v / 256 mod 256)) (k + 3) (v mod 256).
Definition go_put_be64 (l : list Z) (k v : Z) : list Z :=
  go_put_be32 (go_put_be32 l k (v / 4294967296 mod 4294967296)) (k + 4) (v mod 4294967296).

Fixpoint while {S : Type} (fuel : nat) (c : S -> bool) (b : S -> S) (s : S) : option S :=
  match fuel with
  | O => None
  | Datatypes.S f => if c s then while f c b (b s) else Some s
  end.

(* a loop whose body can panic *)
Fixpoint whileP {S : Type} (fuel : nat) (c : S -> bool) (b : S -> option S) (s : S) : option S :=
  match fuel with
  | O => None
  | Datatypes.S f => if c s then match b s with None => None | Some s' => whileP f c b s' end else Some s
  end.

Lemma wrapU_id k z : 0 <= z < 2 ^ k -> wrapU k z = z.
Proof. intros H; unfold wrapU; apply Z.mod_small; exact H. Qed.

Lemma wrapU_range k z : 0 <= k -> 0 <= wrapU k z < 2 ^ k.
Proof. intros Hk; unfold wrapU; apply Z.mod_pos_bound; apply Z.pow_pos_nonneg; lia. Qed.

Lemma wrapS_id k z : 0 < k -> - 2 ^ (k - 1) <= z < 2 ^ (k - 1) -> wrapS k z = z.
Proof.
  intros Hk H; unfold wrapS.
  assert (E : 2 ^ k = 2 * 2 ^ (k - 1)) by (rewrite <- Z.pow_succ_r by lia; f_equal; lia).
  rewrite Z.mod_small by lia; lia.
Qed.

Lemma wrapS_range k z : 0 < k -> - 2 ^ (k - 1) <= wrapS k z < 2 ^ (k - 1).
Proof.
  intros Hk; unfold wrapS.
  assert (E : 2 ^ k = 2 * 2 ^ (k - 1)) by (rewrite <- Z.pow_succ_r by lia; f_equal; lia).
  assert (P : 0 < 2 ^ (k - 1)) by (apply Z.pow_pos_nonneg; lia).
  pose proof (Z.mod_pos_bound (z + 2 ^ (k - 1)) (2 ^ k)) as B; lia.
Qed.

Lemma go_wrap_id t z : 0 < go_bits t -> go_in t z -> go_wrap t z = z.
Proof. destruct t as [k|k]; cbn; intros Hk H; [apply wrapS_id | apply wrapU_id]; assumption. Qed.

Lemma go_wrap_in t z : 0 < go_bits t -> go_in t (go_wrap t z).
Proof. destruct t as [k|k]; cbn; intros Hk; [apply wrapS_range | apply wrapU_range]; lia. Qed.

Lemma while_unroll {S} f (c : S -> bool) b s :
  while (Datatypes.S f) c b s = if c s then while f c b (b s) else Some s.
Proof. reflexivity. Qed.

Lemma while_fuel_mono {S} (c : S -> bool) b f : forall s r g, while f c b s = Some r -> (f <= g)%nat -> while g c b s = Some r.
Proof.
  induction f as [|f IH]; intros s r g H Hg; [discriminate|].
  destruct g as [|g]; [lia|]. cbn in *. destruct (c s); [apply IH; [exact H|lia] | exact H].
Qed.

Lemma while_end {S} (c : S -> bool) b f s r : while f c b s = Some r -> c r = false.
Proof.
  revert s; induction f as [|f IH]; intros s H; [discriminate|].
  cbn in H. destruct (c s) eqn:E; [apply (IH _ H) | congruence].
Qed.

(* invariant rule: an invariant preserved by the body while the condition holds, holds at the end *)
Lemma while_inv {S} (P : S -> Prop) (c : S -> bool) b :
  (forall s, P s -> c s = true -> P (b s)) ->
  forall f s r, P s -> while f c b s = Some r -> P r.
Proof.
  intros Hb f; induction f as [|f IH]; intros s r Hs H; [discriminate|].
  cbn in H. destruct (c s) eqn:E; [apply (IH (b s)); auto | congruence].
Qed.

Lemma while_measure {S} (m : S -> nat) (c : S -> bool) b :
  (forall s, c s = true -> (m (b s) < m s)%nat) ->
  forall f s, (m s < f)%nat -> exists r, while f c b s = Some r.
Proof.
  intros Hm f; induction f as [|f IH]; intros s Hf; [lia|].
  cbn. destruct (c s) eqn:E; [apply IH; specialize (Hm s E); lia | eauto].
Qed.

(* One-step simulation against a fuelled model loop.  [A] is the model's state, [R a s] says that the model state
   [a] represents the state [s] of the translated loop (it carries the loop invariant), [model f a] is the model
   loop with [f] iterations of fuel left (returning its accumulator when the fuel is out or its test fails), [out]
   reads the result off the final state of the translated loop, [m] is a measure that bounds the iterations.
     stop: where the translated test fails, the model returns what the state holds, whatever its fuel;
     step: where the translated test holds, the body leads to a represented state, the measure drops and the
           model makes one step.
   Then [S f] units of fuel (f iterations and the final test) suffice whenever the measure is at most [f], and the
   two loops agree.  Only [stop] and [step] look at the loop body: an edit of the Go source that keeps each
   iteration's effect keeps the proof. *)
Lemma while_simulates {A S T} (R : A -> S -> Prop) (m : A -> nat) (model : nat -> A -> T) (out : S -> T)
      (c : S -> bool) (b : S -> S) :
  (forall f a s, R a s -> c s = false -> model f a = out s) ->
  (forall f a s, R a s -> c s = true ->
     exists a', R a' (b s) /\ (m a' < m a)%nat /\ model (Datatypes.S f) a = model f a') ->
  forall f a s, R a s -> (m a <= f)%nat ->
  exists r, while (Datatypes.S f) c b s = Some r /\ model f a = out r /\ c r = false.
Proof.
  intros Hstop Hstep f; induction f as [|f IH]; intros a s HR Hm.
  - cbn. destruct (c s) eqn:E.
    + destruct (Hstep 0%nat a s HR E) as (a' & _ & Hlt & _). lia.
    + exists s. repeat split; [apply Hstop; assumption | exact E].
  - rewrite while_unroll. destruct (c s) eqn:E.
    + destruct (Hstep f a s HR E) as (a' & HR' & Hlt & Hmod).
      destruct (IH a' (b s) HR') as (r & Hw & Hr & Hc); [lia|].
      exists r. repeat split; [exact Hw | rewrite Hmod; exact Hr | exact Hc].
    + exists s. repeat split; [apply Hstop; assumption | exact E].
Qed.

(* for a loop whose model is a closed form rather than a fuelled function: an invariant and a measure give
   termination within the fuel, in a state where the invariant holds and the test fails *)
Lemma while_total {S} (I : S -> Prop) (m : S -> nat) (c : S -> bool) (b : S -> S) :
  (forall s, I s -> c s = true -> I (b s) /\ (m (b s) < m s)%nat) ->
  forall f s, I s -> (m s < f)%nat -> exists r, while f c b s = Some r /\ I r /\ c r = false.
Proof.
  intros Hb f; induction f as [|f IH]; intros s Hs Hf; [lia|].
  rewrite while_unroll. destruct (c s) eqn:E.
  - destruct (Hb s Hs E) as [Hi Hlt]. apply IH; [exact Hi | lia].
  - exists s. auto.
Qed.

Lemma whileP_unroll {S} f (c : S -> bool) b s :
  whileP (Datatypes.S f) c b s = if c s then match b s with None => None | Some s' => whileP f c b s' end else Some s.
Proof. reflexivity. Qed.

Lemma whileP_fuel_mono {S} (c : S -> bool) b f : forall s r g, whileP f c b s = Some r -> (f <= g)%nat -> whileP g c b s = Some r.
Proof.
  induction f as [|f IH]; intros s r g H Hg; [discriminate|].
  destruct g as [|g]; [lia|]. cbn in *. destruct (c s); [|exact H].
  destruct (b s) as [s'|]; [apply IH; [exact H|lia] | discriminate].
Qed.

(* one-step simulation as [while_simulates], for a body that may panic: [step] also shows that it does not *)
Lemma whileP_simulates {A S T} (R : A -> S -> Prop) (m : A -> nat) (model : nat -> A -> T) (out : S -> T)
      (c : S -> bool) (b : S -> option S) :
  (forall f a s, R a s -> c s = false -> model f a = out s) ->
  (forall f a s, R a s -> c s = true ->
     exists s' a', b s = Some s' /\ R a' s' /\ (m a' < m a)%nat /\ model (Datatypes.S f) a = model f a') ->
  forall f a s, R a s -> (m a <= f)%nat ->
  exists r, whileP (Datatypes.S f) c b s = Some r /\ model f a = out r /\ c r = false.
Proof.
  intros Hstop Hstep f; induction f as [|f IH]; intros a s HR Hm.
  - cbn. destruct (c s) eqn:E.
    + destruct (Hstep 0%nat a s HR E) as (s' & a' & _ & _ & Hlt & _). lia.
    + exists s. repeat split; [apply Hstop; assumption | exact E].
  - rewrite whileP_unroll. destruct (c s) eqn:E.
    + destruct (Hstep f a s HR E) as (s' & a' & Hb & HR' & Hlt & Hmod). rewrite Hb.
      destruct (IH a' s' HR') as (r & Hw & Hr & Hc); [lia|].
      exists r. repeat split; [exact Hw | rewrite Hmod; exact Hr | exact Hc].
    + exists s. repeat split; [apply Hstop; assumption | exact E].
Qed.

Lemma upd_nat_length l : forall n v, length (upd_nat l n v) = length l.
Proof. induction l as [|x t IH]; intros [|n] v; cbn; try reflexivity. rewrite IH. reflexivity. Qed.

Lemma go_len_upd l j v : go_len (go_upd l j v) = go_len l.
Proof. unfold go_len, go_upd. rewrite upd_nat_length. reflexivity. Qed.

Lemma upd_nat_mid a : forall x b v, upd_nat (a ++ x :: b) (length a) v = a ++ v :: b.
Proof. induction a as [|y a IH]; intros x b v; cbn; [reflexivity | rewrite IH; reflexivity]. Qed.

Lemma go_upd_mid a x b v : go_upd (a ++ x :: b) (Z.of_nat (length a)) v = a ++ v :: b.
Proof. unfold go_upd. rewrite Nat2Z.id. apply upd_nat_mid. Qed.

Lemma go_nth_mid a x b : go_nth (a ++ x :: b) (Z.of_nat (length a)) = x.
Proof. unfold go_nth. rewrite Nat2Z.id. apply nth_middle. Qed.

Lemma go_len_app a b : go_len (a ++ b) = go_len a + go_len b.
Proof. unfold go_len. rewrite app_length. lia. Qed.
