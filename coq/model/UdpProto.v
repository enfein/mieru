(* UdpProto — model of mieru's UDP session layer (pkg/protocol/session.go, packet transport) for
   properties C02 (reliable, ordered, exactly-once; progress) and C13 (acks never ahead of receipt,
   retransmissions never change content, gapless sequence numbers).

   Part 1: an abstract labelled transition system of ONE direction of ONE session: the sender half lives at
           one endpoint, the receiver half at the other; the reverse direction is a second, independent instance.
           Acks of this direction travel in datagrams of the other one (pure acks or data), which is why the
           step [LSendAck] stands for "the receiving endpoint emits any datagram" (runOutputOncePacket and
           writeChunk stamp unAckSeq := nextRecv on acks, on new data and on every retransmission).
           The network is the SET of all datagrams ever sent; [LRecvData]/[LRecvAck] may fire for any member, any
           number of times, in any order: that single rule is loss + duplication + delay + reordering.
   Part 2: an EXECUTABLE acceptor over recorded traces of a real session (both directions, both endpoints).

   Which Go statements are one step: everything under oLock in runOutputOncePacket/writeChunk that stamps and
   outputs one segment is one step; inputData (ack processing, recvBuf insert, moveRecvBufToRecvQueue) is split
   into RecvAck / RecvData / Move steps, which only adds interleavings.
   Definitions only. *)
From Coq Require Import List NArith ZArith Bool Arith.
From M Require Import gen.Consts.
Import ListNotations.
Open Scope nat_scope.

Definition byte := N.
Definition bytes := list byte.

(* what a sequence number is bound to: segment type, fragment marker, payload *)
Record content := mkC { c_ty : N; c_frag : N; c_pay : bytes }.

Definition bytes_of (l : list content) : bytes := concat (map c_pay l).

(* ------------------------------------------------------------------------------------------------ *)
(* Part 1. The LTS.  Sequence numbers are positions in the history [assigned], hence [nat].          *)

Record st := mkSt {
  assigned : list content;        (* content of seq i, for every seq handed out so far (nextSend = length)   *)
  una : nat;                      (* sendBuf = [una, sent_hi)                                                 *)
  sent_hi : nat;                  (* sendQueue = [sent_hi, length assigned)                                   *)
  win : nat;                      (* oracle: min(cwnd - |sendBuf|, remoteWindowSize); any value               *)
  fwd : list (nat * content);     (* every data datagram ever sent                                            *)
  back : list (nat * nat);        (* every datagram of the reverse direction ever sent: (unAckSeq carried,
                                     ghost: number of in-order segments its emitter had when it was emitted)  *)
  next_recv : nat;                (* receiver: nextRecv                                                       *)
  rbuf : list (nat * content);    (* receiver: recvBuf                                                        *)
  got : list content;             (* receiver: everything ever moved to recvQueue, in order                   *)
  rd : nat;                       (* number of bytes the application has read                                 *)
  lost : nat                      (* ghost: transmissions of segment number next_recv since next_recv last advanced *)
}.

Inductive label :=
| LWrite (c : content)            (* Write/writeChunk (or open/close request/response): nextSend++            *)
| LSendNew (i : nat)              (* first transmission, sendQueue -> sendBuf (window limited)                 *)
| LRetx (i : nat)                 (* retransmission from sendBuf (NOT window limited)                          *)
| LRecvData (i : nat) (c : content) (* some copy of a datagram reaches inputData and is stored in recvBuf      *)
| LRecvIgnored                    (* a copy arrives and is dropped (window closed, recvBuf full)               *)
| LDropBuf (i : nat) (c : content)(* recvBuf entry discarded (old duplicate, replace-on-equal)                 *)
| LMove                           (* moveRecvBufToRecvQueue: the entry with exactly seq nextRecv               *)
| LSendAck (u : nat)              (* the receiving endpoint emits a datagram stamped unAckSeq := nextRecv; the
                                     atomic load may be overtaken by the input loop before WriteTo, so u <= nextRecv *)
| LRecvAck (u : nat)              (* inputAck / inputData: drop seq < unAckSeq from sendBuf                    *)
| LSetWin (w : nat)               (* congestion / remote window change (oracle)                                *)
| LAppRead (k : nat).             (* application Read returns k more bytes                                     *)

Definition bump (i nr l : nat) : nat := if Nat.eqb i nr then S l else l.

Inductive lstep : st -> label -> st -> Prop :=
| s_write : forall s c,
    lstep s (LWrite c)
      (mkSt (assigned s ++ [c]) (una s) (sent_hi s) (win s) (fwd s) (back s) (next_recv s) (rbuf s) (got s) (rd s) (lost s))
| s_sendnew : forall s c,
    nth_error (assigned s) (sent_hi s) = Some c -> 0 < win s ->
    lstep s (LSendNew (sent_hi s))
      (mkSt (assigned s) (una s) (S (sent_hi s)) (win s) ((sent_hi s, c) :: fwd s) (back s) (next_recv s) (rbuf s) (got s) (rd s)
            (bump (sent_hi s) (next_recv s) (lost s)))
| s_retx : forall s i c,
    una s <= i -> i < sent_hi s -> nth_error (assigned s) i = Some c ->
    lstep s (LRetx i)
      (mkSt (assigned s) (una s) (sent_hi s) (win s) ((i, c) :: fwd s) (back s) (next_recv s) (rbuf s) (got s) (rd s)
            (bump i (next_recv s) (lost s)))
| s_recvdata : forall s i c,
    In (i, c) (fwd s) ->
    lstep s (LRecvData i c)
      (mkSt (assigned s) (una s) (sent_hi s) (win s) (fwd s) (back s) (next_recv s) ((i, c) :: rbuf s) (got s) (rd s) (lost s))
| s_recvignored : forall s, lstep s LRecvIgnored s
| s_dropbuf : forall s i c l1 l2,
    rbuf s = l1 ++ (i, c) :: l2 ->
    lstep s (LDropBuf i c)
      (mkSt (assigned s) (una s) (sent_hi s) (win s) (fwd s) (back s) (next_recv s) (l1 ++ l2) (got s) (rd s) (lost s))
| s_move : forall s c,
    In (next_recv s, c) (rbuf s) ->
    lstep s LMove
      (mkSt (assigned s) (una s) (sent_hi s) (win s) (fwd s) (back s) (S (next_recv s)) (rbuf s) (got s ++ [c]) (rd s) 0)
| s_sendack : forall s u,
    u <= next_recv s ->
    lstep s (LSendAck u)
      (mkSt (assigned s) (una s) (sent_hi s) (win s) (fwd s) ((u, length (got s)) :: back s) (next_recv s) (rbuf s) (got s) (rd s) (lost s))
| s_recvack : forall s u g,
    In (u, g) (back s) ->
    lstep s (LRecvAck u)
      (mkSt (assigned s) (Nat.max (una s) (Nat.min u (sent_hi s))) (sent_hi s) (win s) (fwd s) (back s) (next_recv s) (rbuf s) (got s) (rd s) (lost s))
| s_setwin : forall s w,
    lstep s (LSetWin w)
      (mkSt (assigned s) (una s) (sent_hi s) w (fwd s) (back s) (next_recv s) (rbuf s) (got s) (rd s) (lost s))
| s_appread : forall s k,
    rd s + k <= length (bytes_of (got s)) ->
    lstep s (LAppRead k)
      (mkSt (assigned s) (una s) (sent_hi s) (win s) (fwd s) (back s) (next_recv s) (rbuf s) (got s) (rd s + k) (lost s)).

Definition init (w : nat) : st := mkSt [] 0 0 w [] [] 0 [] [] 0 0.

Inductive reach : st -> Prop :=
| reach_init : forall w, reach (init w)
| reach_step : forall s l s', reach s -> lstep s l s' -> reach s'.

Inductive run : st -> list label -> st -> Prop :=
| run_nil : forall s, run s [] s
| run_cons : forall s l s1 ls s2, lstep s l s1 -> run s1 ls s2 -> run s (l :: ls) s2.

(* the bytes the application has read so far *)
Definition read_bytes (s : st) : bytes := firstn (rd s) (bytes_of (got s)).
(* the bytes the peer application has written so far *)
Definition written_bytes (s : st) : bytes := bytes_of (assigned s).

(* 1 if the step transmits the segment the receiver is waiting for *)
Definition is_awaited (s : st) (l : label) : nat :=
  match l with LSendNew i | LRetx i => if Nat.eqb i (next_recv s) then 1 else 0 | _ => 0 end.

(* fairness: along the run, fewer than K consecutive transmissions of the segment the receiver is waiting
   for go by without the receiver advancing (they are not all lost); the ghost field [lost] counts exactly
   those.  [fair_run K s T s']: a K-fair run from s to s' containing T transmissions of awaited segments. *)
Inductive fair_run (K : nat) : st -> nat -> st -> Prop :=
| fr_nil : forall s, lost s < K -> fair_run K s 0 s
| fr_cons : forall s l s1 t s2, lost s < K -> lstep s l s1 -> fair_run K s1 t s2 -> fair_run K s (is_awaited s l + t) s2.

Definition txCountLimit : nat := Z.to_nat C02_txCountLimit.

(* ------------------------------------------------------------------------------------------------ *)
(* Part 2. Executable acceptor over recorded traces.  Side: false = client endpoint, true = server.  *)

Record dg := mkDg { g_ty : N; g_seq : N; g_unack : N; g_win : N; g_frag : N; g_pay : bytes }.

Inductive event :=
| EW (X : bool) (b : bytes)          (* application Write called on endpoint X with b                          *)
| ES (X : bool) (g : dg)             (* endpoint X emitted datagram g (decoded)                                *)
| ER (X : bool) (k : N)              (* endpoint X's ReadFrom returned the k-th datagram the other side emitted *)
| EA (X : bool) (b : bytes)          (* application Read on endpoint X returned b                              *)
| EF.                                (* the driver claims: transfer complete in both directions                *)

Definition tyN (z : Z) : N := Z.to_N z.
Definition seq_types (X : bool) : list N :=
  if X then [tyN C02_ProtoOpenSessionResponse; tyN C02_ProtoCloseSessionRequest; tyN C02_ProtoCloseSessionResponse;
             tyN C02_ProtoDataServerToClient; tyN C02_ProtoDataServerToClientLE]
  else [tyN C02_ProtoOpenSessionRequest; tyN C02_ProtoCloseSessionRequest; tyN C02_ProtoCloseSessionResponse;
        tyN C02_ProtoDataClientToServer; tyN C02_ProtoDataClientToServerLE].
Definition ack_type (X : bool) : N := if X then tyN C02_ProtoAckServerToClient else tyN C02_ProtoAckClientToServer.
(* sequenced segment (consumes a sequence number, is retransmitted) / pure ack, as emitted by endpoint X *)
Definition is_seq (X : bool) (ty : N) : bool := existsb (N.eqb ty) (seq_types X).
Definition is_ack (X : bool) (ty : N) : bool := N.eqb ty (ack_type X).

Definition cont (g : dg) : content := mkC (g_ty g) (g_frag g) (g_pay g).

Fixpoint bytes_eqb (a b : bytes) : bool :=
  match a, b with
  | [], [] => true
  | x :: a', y :: b' => N.eqb x y && bytes_eqb a' b'
  | _, _ => false
  end.
Definition content_eqb (a b : content) : bool :=
  N.eqb (c_ty a) (c_ty b) && N.eqb (c_frag a) (c_frag b) && bytes_eqb (c_pay a) (c_pay b).

(* remove the common prefix of p and c: inl (rest of p) when c is exhausted, inr (rest of c) when p is *)
Fixpoint strip1 (p c : bytes) : option (bytes + bytes) :=
  match p, c with
  | [], _ => Some (inr c)
  | _, [] => Some (inl p)
  | x :: p', y :: c' => if N.eqb x y then strip1 p' c' else None
  end.
(* remove p from the front of the byte stream held as a list of chunks *)
Fixpoint strip (p : bytes) (cs : list bytes) : option (list bytes) :=
  match cs with
  | [] => match p with [] => Some [] | _ => None end
  | c :: cs' => match strip1 p c with
                | None => None
                | Some (inr []) => Some cs'
                | Some (inr rc) => Some (rc :: cs')
                | Some (inl rp) => strip rp cs'
                end
  end.
Definition all_nil (l : list bytes) : bool := forallb (fun c => match c with [] => true | _ => false end) l.

(* one endpoint: its sender half (pend, asg, emit) and its receiver half (nr, rbuf, avail) *)
Record ep := mkEp {
  e_pend : list bytes;            (* bytes handed to Write, not yet seen in a first transmission (chunks)       *)
  e_asg : list content;           (* content of seq 0,1,2,... as first transmitted                              *)
  e_emit : list dg;               (* every datagram this endpoint emitted, in order                             *)
  e_nr : nat;                     (* most optimistic nextRecv: in-order segments among the datagrams DELIVERED  *)
  e_rbuf : list (nat * content);  (* delivered segments with seq > e_nr                                         *)
  e_avail : list bytes            (* released in order, not yet returned by Read (chunks)                       *)
}.
Record ast := mkA { a_c : ep; a_s : ep }.
Definition getE (X : bool) (a : ast) : ep := if X then a_s a else a_c a.
Definition setE (X : bool) (e : ep) (a : ast) : ast := if X then mkA (a_c a) e else mkA e (a_s a).
Definition ep0 : ep := mkEp [] [] [] 0 [] [].
Definition a0 : ast := mkA ep0 ep0.

Inductive res := Acc (a : ast) | Rej (code : N).
(* rejection codes *)
Definition rj_type : N := 1%N.       (* segment type not one this endpoint may emit                                 *)
Definition rj_ack : N := 2%N.        (* unAckSeq ahead of what has been delivered in order to the emitter           *)
Definition rj_payload : N := 3%N.    (* payload of a new seq is not the next written bytes                          *)
Definition rj_retx : N := 4%N.       (* a repeated seq differs in type, fragment or payload                         *)
Definition rj_gap : N := 5%N.        (* a new seq is not the next one                                               *)
Definition rj_recv : N := 6%N.       (* receipt of a datagram that was not emitted                                  *)
Definition rj_read : N := 7%N.       (* Read returned bytes that are not the next in-order released bytes           *)
Definition rj_fin : N := 8%N.        (* completion claimed but something is still outstanding                       *)

Fixpoint take (n : nat) (l : list (nat * content)) : option (content * list (nat * content)) :=
  match l with
  | [] => None
  | (i, c) :: l' =>
      if Nat.eqb i n then Some (c, l')
      else match take n l' with Some (c', r) => Some (c', (i, c) :: r) | None => None end
  end.
Definition has (n : nat) (l : list (nat * content)) : bool := existsb (fun ic => Nat.eqb (fst ic) n) l.

(* moveRecvBufToRecvQueue: release entries numbered nr, nr+1, ... while present *)
Fixpoint drain (fuel nr : nat) (rb : list (nat * content)) : nat * list (nat * content) * list bytes :=
  match fuel with
  | O => (nr, rb, [])
  | S f => match take nr rb with
           | Some (c, rb') => let '(nr', rb'', rel) := drain f (S nr) rb' in (nr', rb'', c_pay c :: rel)
           | None => (nr, rb, [])
           end
  end.

Definition acc_step (a : ast) (e : event) : res :=
  match e with
  | EW X b =>
      let x := getE X a in
      Acc (setE X (mkEp (e_pend x ++ [b]) (e_asg x) (e_emit x) (e_nr x) (e_rbuf x) (e_avail x)) a)
  | ES X g =>
      let x := getE X a in
      if negb (N.leb (g_unack g) (N.of_nat (e_nr x))) then Rej rj_ack
      else if is_seq X (g_ty g) then
        let n := N.of_nat (length (e_asg x)) in
        if N.eqb (g_seq g) n then
          match strip (g_pay g) (e_pend x) with
          | Some pend' => Acc (setE X (mkEp pend' (e_asg x ++ [cont g]) (e_emit x ++ [g]) (e_nr x) (e_rbuf x) (e_avail x)) a)
          | None => Rej rj_payload
          end
        else if N.ltb (g_seq g) n then
          match nth_error (e_asg x) (N.to_nat (g_seq g)) with
          | Some c => if content_eqb c (cont g)
                      then Acc (setE X (mkEp (e_pend x) (e_asg x) (e_emit x ++ [g]) (e_nr x) (e_rbuf x) (e_avail x)) a)
                      else Rej rj_retx
          | None => Rej rj_retx
          end
        else Rej rj_gap
      else if is_ack X (g_ty g) then
        Acc (setE X (mkEp (e_pend x) (e_asg x) (e_emit x ++ [g]) (e_nr x) (e_rbuf x) (e_avail x)) a)
      else Rej rj_type
  | ER X k =>
      let x := getE X a in
      let y := getE (negb X) a in
      if N.ltb k (N.of_nat (length (e_emit y))) then
        match nth_error (e_emit y) (N.to_nat k) with
        | None => Rej rj_recv
        | Some g =>
            if is_seq (negb X) (g_ty g) then
              let i := N.to_nat (g_seq g) in
              if Nat.ltb i (e_nr x) || has i (e_rbuf x) then Acc a
              else
                let '(nr', rb', rel) := drain (S (S (length (e_rbuf x)))) (e_nr x) ((i, cont g) :: e_rbuf x) in
                Acc (setE X (mkEp (e_pend x) (e_asg x) (e_emit x) nr' rb' (e_avail x ++ rel)) a)
            else Acc a
        end
      else Rej rj_recv
  | EA X b =>
      let x := getE X a in
      match strip b (e_avail x) with
      | Some av' => Acc (setE X (mkEp (e_pend x) (e_asg x) (e_emit x) (e_nr x) (e_rbuf x) av') a)
      | None => Rej rj_read
      end
  | EF =>
      let ok X := let x := getE X a in let y := getE (negb X) a in
                  all_nil (e_pend x) && all_nil (e_avail x) && Nat.eqb (e_nr x) (length (e_asg y)) in
      if ok false && ok true then Acc a else Rej rj_fin
  end.

(* whole-trace acceptor: the final state, or the index and reason of the first rejected event *)
Fixpoint run_acc (a : ast) (tr : list event) (idx : N) : ast + (N * N) :=
  match tr with
  | [] => inl a
  | e :: t => match acc_step a e with
              | Acc a' => run_acc a' t (N.succ idx)
              | Rej c => inr (idx, c)
              end
  end.
Definition accept (tr : list event) : ast + (N * N) := run_acc a0 tr 0%N.
Definition accepts (tr : list event) : bool := match accept tr with inl _ => true | inr _ => false end.

(* ---- what the theorems say about a trace (defined on the trace alone, not on the acceptor state) ---- *)

Definition ev_written (X : bool) (e : event) : bytes :=
  match e with EW s b => if Bool.eqb s X then b else [] | _ => [] end.
Definition ev_read (X : bool) (e : event) : bytes :=
  match e with EA s b => if Bool.eqb s X then b else [] | _ => [] end.
Definition ev_emit (X : bool) (e : event) : list dg :=
  match e with ES s g => if Bool.eqb s X then [g] else [] | _ => [] end.
(* bytes handed to Write on X / bytes returned by Read on X / datagrams emitted by X, in trace order *)
Definition written (X : bool) (tr : list event) : bytes := concat (map (ev_written X) tr).
Definition readb (X : bool) (tr : list event) : bytes := concat (map (ev_read X) tr).
Definition emitted (X : bool) (tr : list event) : list dg := concat (map (ev_emit X) tr).

(* segment number i of the peer has been delivered to endpoint X within tr: some ReadFrom of X returned a
   datagram that the peer had emitted before and that carries sequenced segment i *)
Definition delivered (X : bool) (tr : list event) (i : nat) : Prop :=
  exists a k b g, tr = a ++ ER X k :: b /\ nth_error (emitted (negb X) a) (N.to_nat k) = Some g /\
                  is_seq (negb X) (g_ty g) = true /\ N.to_nat (g_seq g) = i.
(* endpoint X has transmitted sequenced segment number i within tr *)
Definition emitted_seq (X : bool) (tr : list event) (i : nat) : Prop :=
  exists g, In g (emitted X tr) /\ is_seq X (g_ty g) = true /\ N.to_nat (g_seq g) = i.

(* ------------------------------------------------------------------------------------------------ *)
(* Part 2b. After Close.  The recorded trace of a session is  pre ++ post : [pre] ends where an application (or
   mieru itself) starts closing, [post] holds the datagrams emitted afterwards (close request / response, queued
   data, retransmissions).  After Close queued segments may be discarded and the close response bypasses the send
   queue, so first transmissions are no longer gapless on the wire and are not checked; what still must hold is
   that a sequence number is never used for two different contents - also across Close, and also for the
   sequenced CONTROL segments (open / close request / response consume sequence numbers like data). *)

Fixpoint assoc (k : N) (l : list (N * content)) : option content :=
  match l with
  | [] => None
  | (k', c) :: l' => if N.eqb k' k then Some c else assoc k l'
  end.
(* the content bound to sequence number k: by the pre-Close history [asg], else by what was seen after Close *)
Definition lookup (asg : list content) (late : list (N * content)) (k : N) : option content :=
  if N.ltb k (N.of_nat (length asg)) then nth_error asg (N.to_nat k) else assoc k late.

(* per endpoint: the bindings seen after Close, whether the endpoint has emitted its own close segment (request or
   response), and the emissions that were checked (ghost, newest first).
   Exemption: once an endpoint has emitted a close segment its session object is gone; a late datagram of the peer for
   that session id is then answered by the UNDERLAY (underlay_packet.go, "Session is not registered") with a stateless
   closeSessionRequest whose sequence field merely echoes the peer's unAckSeq - it is not a sequence number assigned
   by a session (the receiver handles close requests without looking at it).  Those replies are not checked. *)
Record ls1 := mkL1 {
  l_tab : list (N * content);     (* bindings of numbers first seen after Close *)
  l_flag : bool;                  (* this endpoint has emitted a close segment of its own *)
  l_chk : list dg;                (* ghost: the emissions whose content was checked, newest first *)
  l_emit : list dg;               (* every datagram this endpoint emitted after Close, in order *)
  l_nr : N;                       (* most optimistic nextRecv (continues e_nr) *)
  l_buf : list N                  (* delivered sequenced numbers >= l_nr *)
}.
Record lst := mkL { l_c : ls1; l_s : ls1 }.
Definition getL (X : bool) (l : lst) : ls1 := if X then l_s l else l_c l.
Definition setL (X : bool) (v : ls1) (l : lst) : lst := if X then mkL (l_c l) v else mkL v (l_s l).
Definition late_init1 (x : ep) : ls1 :=
  mkL1 [] false [] [] (N.of_nat (e_nr x)) (map (fun e => N.of_nat (fst e)) (e_rbuf x)).
(* a = the acceptor state at Close *)
Definition late_init (a : ast) : lst := mkL (late_init1 (a_c a)) (late_init1 (a_s a)).
Definition ty_close_req : N := tyN C02_ProtoCloseSessionRequest.
Definition is_close (ty : N) : bool := N.eqb ty ty_close_req || N.eqb ty (tyN C02_ProtoCloseSessionResponse).
Fixpoint adv (fuel : nat) (nr : N) (buf : list N) : N :=
  match fuel with
  | O => nr
  | S f => if existsb (N.eqb nr) buf then adv f (N.succ nr) buf else nr
  end.

Definition late_step (a : ast) (l : lst) (e : event) : option lst :=
  match e with
  | ES X g =>
      let x := getL X l in
      (* acks stay safe while closing: never ahead of what has been delivered in order *)
      if negb (N.leb (g_unack g) (l_nr x)) then None
      else if is_seq X (g_ty g) then
        if l_flag x && N.eqb (g_ty g) ty_close_req then
          (* stateless reply of the underlay for a session it no longer has: seq echoes the peer's unAckSeq; accepted as
             the code emits it, not bound (see C13_seq_reuse_after_close_refuted) *)
          Some (setL X (mkL1 (l_tab x) (l_flag x) (l_chk x) (l_emit x ++ [g]) (l_nr x) (l_buf x)) l)
        else
          let fl := l_flag x || is_close (g_ty g) in
          match lookup (e_asg (getE X a)) (l_tab x) (g_seq g) with
          | Some c => if content_eqb c (cont g)
                      then Some (setL X (mkL1 (l_tab x) fl (g :: l_chk x) (l_emit x ++ [g]) (l_nr x) (l_buf x)) l)
                      else None
          | None => Some (setL X (mkL1 ((g_seq g, cont g) :: l_tab x) fl (g :: l_chk x) (l_emit x ++ [g]) (l_nr x) (l_buf x)) l)
          end
      else if is_ack X (g_ty g)
      then Some (setL X (mkL1 (l_tab x) (l_flag x) (l_chk x) (l_emit x ++ [g]) (l_nr x) (l_buf x)) l)
      else None
  | ER X k =>
      let x := getL X l in
      let pre_emit := e_emit (getE (negb X) a) in
      let post_emit := l_emit (getL (negb X) l) in
      let np := length pre_emit in
      if N.ltb k (N.of_nat (np + length post_emit)) then
        match (if N.ltb k (N.of_nat np) then nth_error pre_emit (N.to_nat k) else nth_error post_emit (N.to_nat k - np)) with
        | None => None
        | Some g =>
            if is_seq (negb X) (g_ty g) then
              let buf := g_seq g :: l_buf x in
              Some (setL X (mkL1 (l_tab x) (l_flag x) (l_chk x) (l_emit x) (adv (S (length buf)) (l_nr x) buf) buf) l)
            else Some l
        end
      else None
  | _ => Some l
  end.
Fixpoint late_run (a : ast) (l : lst) (post : list event) : option lst :=
  match post with
  | [] => Some l
  | e :: t => match late_step a l e with Some l' => late_run a l' t | None => None end
  end.
(* the whole recorded session: [pre] accepted by the acceptor, [post] consistent with it *)
Definition late_final (pre post : list event) : option lst :=
  match accept pre with inl a => late_run a (late_init a) post | inr _ => None end.
Definition accept_closed (pre post : list event) : bool :=
  match accept pre with
  | inl a => match late_run a (late_init a) post with Some _ => true | None => false end
  | inr _ => false
  end.

(* ------------------------------------------------------------------------------------------------ *)
(* Part 1b. Windows.  In Part 1 the send window [win] is a free oracle value.  Here it is computed as the code
   does - sendWindowSize = min(cwnd - |sendBuf|, remoteWindowSize) - from a congestion window (oracle, never below
   minWindowSize), the sender's view [rwnd] of the receiver's window, the receiver's free space [rspace]
   (oracle: segmentTreeCapacity - |recvBuf| - |recvQueue|, changed by arrivals and application reads) and the
   window values carried by the datagrams of the reverse direction.  inputAck / inputData store the advertised
   window of EVERY ack, also of one whose ack number is not new: that is what reopens a closed window when
   nothing is in flight (the receiver's heartbeat ack). *)

Record wst := mkW {
  base : st;
  cwnd : nat;
  rwnd : nat;                     (* sender: remoteWindowSize *)
  rspace : nat;                   (* receiver: receiveWindowSize() *)
  backw : list (nat * nat)        (* every datagram of the reverse direction: (unAckSeq, windowSize) *)
}.
Definition minWindow : nat := Z.to_nat C02_minWindowSize.
Definition swin (b : st) (cw rw : nat) : nat := Nat.min (cw - (sent_hi b - una b)) rw.
Definition set_win (b : st) (w : nat) : st :=
  mkSt (assigned b) (una b) (sent_hi b) w (fwd b) (back b) (next_recv b) (rbuf b) (got b) (rd b) (lost b).
Definition is_setwin (l : label) : bool := match l with LSetWin _ => true | _ => false end.
Definition is_sendack (l : label) : bool := match l with LSendAck _ => true | _ => false end.
Definition is_recvack (l : label) : bool := match l with LRecvAck _ => true | _ => false end.

Inductive wlabel :=
| WBase (l : label)               (* a step of Part 1 other than window / ack steps *)
| WCwnd (c : nat)                 (* CUBIC changes the congestion window *)
| WSpace (r : nat)                (* arrivals / application reads change the receiver's free space *)
| WSendAck (u : nat)              (* the receiver emits a datagram: (unAckSeq, current window) *)
| WRecvAck (u w : nat).           (* the sender processes it: sendBuf pruned, remoteWindowSize := w, whatever u is *)

Inductive wstep : wst -> wlabel -> wst -> Prop :=
| ws_base : forall s l b1,
    lstep (base s) l b1 -> is_setwin l = false -> is_sendack l = false -> is_recvack l = false ->
    wstep s (WBase l) (mkW (set_win b1 (swin b1 (cwnd s) (rwnd s))) (cwnd s) (rwnd s) (rspace s) (backw s))
| ws_cwnd : forall s c,
    minWindow <= c ->
    wstep s (WCwnd c) (mkW (set_win (base s) (swin (base s) c (rwnd s))) c (rwnd s) (rspace s) (backw s))
| ws_space : forall s r,
    wstep s (WSpace r) (mkW (base s) (cwnd s) (rwnd s) r (backw s))
| ws_sendack : forall s u b1,
    lstep (base s) (LSendAck u) b1 ->
    wstep s (WSendAck u) (mkW b1 (cwnd s) (rwnd s) (rspace s) ((u, rspace s) :: backw s))
| ws_recvack : forall s u w b1,
    In (u, w) (backw s) -> lstep (base s) (LRecvAck u) b1 ->
    wstep s (WRecvAck u w) (mkW (set_win b1 (swin b1 (cwnd s) w)) (cwnd s) w (rspace s) (backw s)).

Definition winit (cw rw rs : nat) : wst := mkW (init (Nat.min cw rw)) cw rw rs [].
Inductive wreach : wst -> Prop :=
| wreach_init : forall cw rw rs, minWindow <= cw -> wreach (winit cw rw rs)
| wreach_step : forall s l s', wreach s -> wstep s l s' -> wreach s'.

(* ------------------------------------------------------------------------------------------------ *)
(* Part 1c. inputData never blocks.  The session's input loop is fed by the ONE goroutine that reads the UDP socket
   for every session of the underlay (through a 256 entry channel), so a step of the input loop that waits on the
   application would stall all sessions of the underlay.  inputData (packet branch), faithfully:
     if receiveWindowSize() <= 0 then drop                      -- window = capacity - |recvBuf| - |recvQueue|
     else if recvBuf.Insert fails (tree holds capacity entries) then drop
     else waitForRecvQueueSpace()  -- WOULD WAIT for the application iff recvQueue holds capacity entries
          ; moveRecvBufToRecvQueue  -- while recvQueue has room and the minimum of recvBuf is <= nextRecv
   The outcome InBlocked below is the waiting branch; input_never_blocks shows it is unreachable, and
   C02_input_without_window_test_refuted shows that it is reachable when the window test is left out. *)

Record rcv := mkR {
  r_next : nat;                      (* nextRecv *)
  r_buf : list (nat * content);      (* recvBuf *)
  r_queue : nat                      (* number of segments in recvQueue (moved, not yet taken by Read) *)
}.
Definition capN : nat := Z.to_nat C02_segmentTreeCapacity.
Definition rwindow (r : rcv) : nat := capN - length (r_buf r) - r_queue r.
Inductive in_outcome := InDropped | InAccepted | InBlocked.

(* ReplaceOrInsert keyed by the sequence number *)
Definition rb_insert (d : nat * content) (l : list (nat * content)) : list (nat * content) :=
  d :: filter (fun e => negb (Nat.eqb (fst e) (fst d))) l.
(* moveRecvBufToRecvQueue: entries below nextRecv are discarded, the entry nextRecv is moved, while the queue has room *)
Fixpoint move_loop (fuel : nat) (r : rcv) : rcv :=
  match fuel with
  | O => r
  | S f =>
      if Nat.leb capN (r_queue r) then r
      else match take (r_next r) (r_buf r) with
           | Some (_, rb') => move_loop f (mkR (S (r_next r)) rb' (S (r_queue r)))
           | None => mkR (r_next r) (filter (fun e => negb (Nat.ltb (fst e) (r_next r))) (r_buf r)) (r_queue r)
           end
  end.
Definition input_body (r : rcv) (d : nat * content) : rcv * in_outcome :=
  if Nat.leb capN (length (r_buf r)) then (r, InDropped)
  else let r1 := mkR (r_next r) (rb_insert d (r_buf r)) (r_queue r) in
       if Nat.leb capN (r_queue r1) then (r1, InBlocked)
       else (move_loop (S (length (r_buf r1))) r1, InAccepted).
Definition input_data (r : rcv) (d : nat * content) : rcv * in_outcome :=
  if Nat.eqb (rwindow r) 0 then (r, InDropped) else input_body r d.
(* the same without the receive-window test *)
Definition input_data_nocheck (r : rcv) (d : nat * content) : rcv * in_outcome := input_body r d.
(* Read takes one segment from recvQueue *)
Definition app_take (r : rcv) : rcv := mkR (r_next r) (r_buf r) (Nat.pred (r_queue r)).

(* ------------------------------------------------------------------------------------------------ *)
(* Part 1d. Numbering under partial Writes.  writeChunk numbers fragment after fragment - seq := nextSend.Load();
   ...; nextSend.Add(1) inside the loop - and the loop may stop early (write deadline passed, session closed, output
   error) after k of the n fragments; a timed-out Write does not end the session.  [queue_frags ns cs k]: the new
   counter and the segments queued when the loop over the fragments cs stops after k of them. *)
Fixpoint queue_frags (ns : nat) (cs : list content) (k : nat) : nat * list (nat * content) :=
  match k, cs with
  | S k', c :: cs' => let '(ns', q) := queue_frags (S ns) cs' k' in (ns', (ns, c) :: q)
  | _, _ => (ns, [])
  end.
(* a history of Writes of one session: (fragments, how many of them were queued) *)
Fixpoint write_all (ns : nat) (ops : list (list content * nat)) : nat * list (nat * content) :=
  match ops with
  | [] => (ns, [])
  | (cs, k) :: t => let '(ns1, q1) := queue_frags ns cs k in
                    let '(ns2, q2) := write_all ns1 t in (ns2, q1 ++ q2)
  end.
(* the variant that reserves the numbers of ALL fragments before the loop: nextSend.Add(n) up front *)
Definition queue_frags_reserve (ns : nat) (cs : list content) (k : nat) : nat * list (nat * content) :=
  (ns + length cs, snd (queue_frags ns cs k)).
Fixpoint write_all_reserve (ns : nat) (ops : list (list content * nat)) : nat * list (nat * content) :=
  match ops with
  | [] => (ns, [])
  | (cs, k) :: t => let '(ns1, q1) := queue_frags_reserve ns cs k in
                    let '(ns2, q2) := write_all_reserve ns1 t in (ns2, q1 ++ q2)
  end.
