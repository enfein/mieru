(* Session.Read counts exactly what it returns, however the stream is cut into reads; after a reload the registry
   holds the configuration of the most recent SetUsers (model/Account.v) *)
From Coq Require Import ZArith List Bool Lia.
From M Require Import model.Quota model.Account proofs.QuotaProofs.
Import ListNotations.
Open Scope Z_scope.

Lemma take_segs_spec : forall q want,
  let '(out, un, q') := take_segs want q in out ++ un ++ concat q' = concat q.
Proof.
  induction q as [|seg q IH]; intros want; cbn [take_segs concat]; [reflexivity|].
  destruct (want <=? length seg)%nat.
  - rewrite app_assoc, firstn_skipn. reflexivity.
  - specialize (IH (want - length seg)%nat). destruct (take_segs (want - length seg) q) as [[out un] q''].
    rewrite <- app_assoc, IH. reflexivity.
Qed.

Lemma read_step : forall st want,
  let '(r, st') := read st want in
  returned r ++ pending st' = pending st /\ r_counted st' = r_counted st + Z.of_nat (length (returned r)).
Proof.
  intros st want. unfold read. destruct want as [|w]; [cbn; split; [reflexivity|lia]|].
  set (want := S w).
  destruct ((length (firstn want (r_unread st)) =? want)%nat || negb (is_nil (skipn want (r_unread st)))) eqn:E.
  - unfold pending. cbn [returned r_unread r_queue r_counted]. split; [|reflexivity].
    rewrite app_assoc, firstn_skipn. reflexivity.
  - apply orb_false_iff in E. destruct E as [_ E]. apply negb_false_iff in E.
    pose proof (firstn_skipn want (r_unread st)) as Ha.
    destruct (skipn want (r_unread st)); [|discriminate E].
    rewrite app_nil_r in Ha.
    rewrite Ha.
    pose proof (take_segs_spec (r_queue st) (want - length (r_unread st))%nat) as Hs.
    destruct (take_segs (want - length (r_unread st)) (r_queue st)) as [[out un'] q'].
    (* what is owed, written as (what this call returns) ++ (what is owed after it) *)
    unfold pending.
    rewrite <- Hs, (app_assoc (r_unread st)).
    destruct (r_unread st ++ out); cbn [returned r_unread r_queue r_counted].
    + split; [reflexivity | cbn; lia].
    + split; reflexivity.
Qed.

Theorem reads_count : forall wants st,
  let '(outs, st') := reads st wants in
  concat outs ++ pending st' = pending st /\
  r_counted st' = r_counted st + Z.of_nat (length (concat outs)).
Proof.
  induction wants as [|w ws IH]; intros st; cbn [reads].
  - cbn. split; [reflexivity|lia].
  - pose proof (read_step st w) as H1. destruct (read st w) as [r st1].
    specialize (IH st1). destruct (reads st1 ws) as [outs st2].
    destruct H1 as [H1 H2], IH as [H3 H4]. cbn [concat]. split.
    + rewrite <- app_assoc, H3. exact H1.
    + rewrite H4, H2, app_length. lia.
Qed.

Theorem count_is_partition_independent : forall st wants1 wants2,
  pending (snd (reads st wants1)) = [] -> pending (snd (reads st wants2)) = [] ->
  r_counted (snd (reads st wants1)) = r_counted (snd (reads st wants2)) /\
  r_counted (snd (reads st wants1)) = r_counted st + Z.of_nat (length (pending st)) /\
  concat (fst (reads st wants1)) = pending st /\ concat (fst (reads st wants2)) = pending st.
Proof.
  intros st w1 w2 H1 H2.
  pose proof (reads_count w1 st) as A. pose proof (reads_count w2 st) as B.
  destruct (reads st w1) as [o1 s1], (reads st w2) as [o2 s2]. cbn [fst snd] in *.
  destruct A as [A1 A2], B as [B1 B2]. rewrite H1, app_nil_r in A1. rewrite H2, app_nil_r in B1.
  rewrite A2, B2, A1, B1. repeat split; reflexivity.
Qed.

Example ex_reads :
  let st := mkR [[1%N; 2%N; 3%N]; []; [4%N; 5%N; 6%N; 7%N; 8%N]] [] 10 in
  reads st [2%nat; 0%nat; 2%nat; 1%nat; 7%nat; 3%nat] =
    ([[1%N; 2%N]; []; [3%N; 4%N]; [5%N]; [6%N; 7%N; 8%N]; []], mkR [] [] 18).
Proof. vm_compute. reflexivity. Qed.

Lemma run_registry_traffic : forall post r, Forall is_traffic post -> run_registry r post = r.
Proof.
  induction post as [|e post IH]; intros r H; [reflexivity|]. inversion H as [|? ? He Hp]; subst.
  destruct e; [destruct He|]. cbn. apply IH. exact Hp.
Qed.

Lemma run_registry_reload r0 pre cfg post :
  Forall is_traffic post -> run_registry r0 (pre ++ EvReload cfg :: post) = Some cfg.
Proof.
  intros H. unfold run_registry. rewrite fold_left_app. exact (run_registry_traffic post (Some cfg) H).
Qed.

Theorem reload_takes_effect : forall r0 pre cfg post u m now,
  Forall is_traffic post ->
  policy_in_force (run_registry r0 (pre ++ EvReload cfg :: post)) u =
    option_map (fun x => mkP (ur_name x) (ur_quotas x)) (find_user u cfg) /\
  decision (run_registry r0 (pre ++ EvReload cfg :: post)) u m now =
    check_quota (option_map (fun x => mkP (ur_name x) (ur_quotas x)) (find_user u cfg)) u m now.
Proof.
  intros r0 pre cfg post u m now H. unfold decision. rewrite run_registry_reload by exact H. split; reflexivity.
Qed.

Lemma find_user_name u : forall g x, find_user u g = Some x -> ur_name x = u.
Proof.
  induction g as [|y g IH]; intros x H; [discriminate|]. cbn in H.
  destruct (name_eqb (ur_name y) u) eqn:E; [|apply IH; exact H].
  inversion H; subst. apply name_eqb_eq. exact E.
Qed.

Theorem reload_refuse_iff : forall r0 pre cfg post u m now,
  Forall is_traffic post ->
  (forall x, find_user u cfg = Some x -> validate_user_quotas (ur_quotas x) = true) ->
  (refused (decision (run_registry r0 (pre ++ EvReload cfg :: post)) u m now) = true <->
   exists x up down q, find_user u cfg = Some x /\ lookup u m = Some (up, down) /\
                       In q (ur_quotas x) /\ exceeded q up down now).
Proof.
  intros r0 pre cfg post u m now Ht Hv.
  destruct (reload_takes_effect r0 pre cfg post u m now Ht) as [_ ->].
  destruct (find_user u cfg) as [x|] eqn:Ef; cbn [option_map].
  - rewrite refuse_iff_own by exact (validate_user_days_ok _ (Hv x eq_refl)). cbn [p_name p_quotas]. split.
    + intros (_ & up & down & q & H). exists x, up, down, q. exact (conj eq_refl H).
    + intros (x' & up & down & q & [= <-] & H). split; [exact (find_user_name u cfg x Ef)|]. exists up, down, q. exact H.
  - split; [discriminate | now intros (x & _ & _ & _ & [=] & _)].
Qed.

Example ex_reload :
  let cfg1 := [mkU ex_bob 1 []; mkU ex_alice 2 []] in
  let cfg2 := [mkU ex_bob 1 []; mkU ex_alice 2 [mkQ 1 2]] in      (* only alice's quota differs *)
  decision (run_registry None [EvReload cfg1; EvTraffic]) ex_alice ex_m ex_now = QAllow /\
  decision (run_registry None [EvReload cfg1; EvTraffic; EvReload cfg2; EvTraffic]) ex_alice ex_m ex_now = QRefuse /\
  decision (run_registry None [EvReload cfg1; EvTraffic; EvReload cfg2; EvTraffic]) ex_bob ex_m ex_now = QAllow.
Proof. repeat apply conj; vm_compute; reflexivity. Qed.
