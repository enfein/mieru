(* The position-by-position rendering of the Intel SDM pseudo code of PDEP / PEXT (pdep_intel / pext_intel of
   base/Bits64.v: bit index m = 0..n-1, source/destination counter k) equals the structural definition, for every
   operand width n (instantiated at 64).  Loop invariant: after visiting positions < m having consumed k bits,
   the rest of the loop deposits (extracts) what the structural recursion does on the mask shifted right by m and
   truncated to the remaining n positions, moved up by m (by k). *)
From Coq Require Import NArith.
From M Require Import base.Bits64 proofs.Bits64Proofs.
Open Scope N_scope.

Lemma shiftr_succ_div2 a k : N.shiftr a (k + 1) = N.div2 (N.shiftr a k).
Proof. rewrite N.div2_spec, N.shiftr_shiftr. reflexivity. Qed.

(* the window of the mask still to be visited: its lowest bit is MASK[m] *)
Lemma window_succ mask m (n : nat) :
  N.shiftr mask m mod 2 ^ N.of_nat (S n) =
  bcons (N.testbit mask m) (N.shiftr mask (m + 1) mod 2 ^ N.of_nat n).
Proof.
  rewrite Nat2N.inj_succ, <- N.add_1_l, mod_pow2_succ, <- N.testbit_odd, shiftr_succ_div2. reflexivity.
Qed.

Lemma setbit_lor a m : N.setbit a m = N.lor a (2 ^ m).
Proof. unfold N.setbit. rewrite N.shiftl_1_l. reflexivity. Qed.

Lemma pdep_intel_loop_spec temp mask : forall (n : nat) m k dest,
  pdep_intel_loop n m k temp mask dest =
  N.lor dest (N.shiftl (pdep (N.shiftr temp k) (N.shiftr mask m mod 2 ^ N.of_nat n)) m).
Proof.
  induction n as [|n IH]; intros m k dest.
  - cbn [pdep_intel_loop]. change (2 ^ N.of_nat 0) with 1. rewrite N.mod_1_r.
    cbn [pdep]. rewrite N.shiftl_0_l, N.lor_0_r. reflexivity.
  - cbn [pdep_intel_loop]. rewrite window_succ, !IH.
    destruct (N.testbit mask m).
    + rewrite (pdep_succ_double _ (_ mod _)), shiftl_bcons, <- N.testbit_odd, <- shiftr_succ_div2.
      destruct (N.testbit temp k).
      * rewrite setbit_lor, N.lor_assoc. reflexivity.
      * rewrite N.lor_0_l. reflexivity.
    + rewrite (pdep_double _ (_ mod _)), (shiftl_bcons false), N.lor_0_l. reflexivity.
Qed.

Lemma pext_intel_loop_spec temp mask : forall (n : nat) m k dest,
  pext_intel_loop n m k temp mask dest =
  N.lor dest (N.shiftl (pext (N.shiftr temp m) (N.shiftr mask m mod 2 ^ N.of_nat n)) k).
Proof.
  induction n as [|n IH]; intros m k dest.
  - cbn [pext_intel_loop]. change (2 ^ N.of_nat 0) with 1. rewrite N.mod_1_r.
    cbn [pext]. rewrite N.shiftl_0_l, N.lor_0_r. reflexivity.
  - cbn [pext_intel_loop]. rewrite window_succ, !IH.
    destruct (N.testbit mask m).
    + rewrite (pext_succ_double _ (_ mod _)), shiftl_bcons, <- N.testbit_odd, <- shiftr_succ_div2.
      destruct (N.testbit temp m).
      * rewrite setbit_lor, N.lor_assoc. reflexivity.
      * rewrite N.lor_0_l. reflexivity.
    + rewrite (pext_double _ (_ mod _)), <- shiftr_succ_div2. reflexivity.
Qed.

Theorem pdep_intel_width (n : nat) x mask :
  pdep_intel_loop n 0 0 x mask 0 = pdep x (mask mod 2 ^ N.of_nat n).
Proof. rewrite pdep_intel_loop_spec, N.lor_0_l, N.shiftl_0_r, !N.shiftr_0_r. reflexivity. Qed.
Theorem pext_intel_width (n : nat) x mask :
  pext_intel_loop n 0 0 x mask 0 = pext x (mask mod 2 ^ N.of_nat n).
Proof. rewrite pext_intel_loop_spec, N.lor_0_l, N.shiftl_0_r, !N.shiftr_0_r. reflexivity. Qed.

Theorem pdep_intel_eq_spec x mask : mask < W64 -> pdep_intel x mask = pdep x mask.
Proof.
  intro H. unfold pdep_intel. rewrite pdep_intel_width. change (2 ^ N.of_nat 64) with W64.
  rewrite N.mod_small by exact H. reflexivity.
Qed.
Theorem pext_intel_eq_spec x mask : mask < W64 -> pext_intel x mask = pext x mask.
Proof.
  intro H. unfold pext_intel. rewrite pext_intel_width. change (2 ^ N.of_nat 64) with W64.
  rewrite N.mod_small by exact H. reflexivity.
Qed.
