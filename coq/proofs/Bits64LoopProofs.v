(* The portable Go loops (pdep_go / pext_go of base/Bits64.v, i.e. pdepGeneric / pextGeneric of
   pkg/mathext/bit.go) compute the structural PDEP / PEXT for every x and every 64-bit mask.
   One iteration takes the lowest one-bit off the mask.  [lowbitP] / [clearlowP] are that bit and the rest of the
   mask as structural functions; [lowbit_spec] / [clearlow_spec] say that [mask & -mask] and [mask & (mask - 1)] compute them, and
   [pdep_step] / [pext_step] re-read the structural PDEP / PEXT along that split, which is the loop invariant. *)
From Coq Require Import NArith Bool Lia.
From M Require Import base.Bits64 proofs.Bits64Proofs.
Open Scope N_scope.

(* the lowest one-bit of p (as a number: 2^t for p = (2r+1) * 2^t), and p without it *)
Fixpoint lowbitP (p : positive) : positive :=
  match p with xO q => xO (lowbitP q) | _ => xH end.
Fixpoint clearlowP (p : positive) : N :=
  match p with xO q => N.double (clearlowP q) | xI q => Npos (xO q) | xH => 0 end.

Lemma land_compl (k : nat) : forall q r, q + r = 2 ^ N.of_nat k - 1 -> N.land q r = 0.
Proof.
  induction k as [|k IH]; intros q r E.
  - change (2 ^ N.of_nat 0) with 1 in E. assert (q = 0) by lia. subst q. reflexivity.
  - rewrite Nat2N.inj_succ, N.pow_succ_r' in E.
    assert (Hp : 1 <= 2 ^ N.of_nat k) by (pose proof (N.pow_nonzero 2 (N.of_nat k)); lia).
    rewrite (bcons_decomp q), (bcons_decomp r) in E |- *. rewrite !bcons_spec in E.
    rewrite land_bcons.
    assert (E2 : N.div2 q + N.div2 r = 2 ^ N.of_nat k - 1 /\ N.odd q && N.odd r = false).
    { destruct (N.odd q), (N.odd r); cbn [N.b2n andb] in *; split; try reflexivity; lia. }
    destruct E2 as [E2 E3]. rewrite E3, (IH _ _ E2). reflexivity.
Qed.

Lemma lowbit_spec (n : nat) : forall p, Npos p < 2 ^ N.of_nat n ->
  N.land (Npos p) (2 ^ N.of_nat n - Npos p) = Npos (lowbitP p).
Proof.
  induction n as [|n IH]; intros p Hp.
  - change (2 ^ N.of_nat 0) with 1 in Hp. lia.
  - rewrite Nat2N.inj_succ, N.pow_succ_r' in *. set (T := 2 ^ N.of_nat n) in *.
    destruct p as [q|q|].
    + change (Npos q~1) with (bcons true (Npos q)) at 1.
      replace (2 * T - Npos q~1) with (bcons true (T - 1 - Npos q)) by (rewrite bcons_spec; cbn [N.b2n]; lia).
      rewrite land_bcons, (land_compl n) by (fold T; lia). reflexivity.
    + change (Npos q~0) with (bcons false (Npos q)) at 1.
      replace (2 * T - Npos q~0) with (bcons false (T - Npos q)) by (rewrite bcons_spec; cbn [N.b2n]; lia).
      rewrite land_bcons, IH by lia. reflexivity.
    + change 1 with (bcons true 0) at 1.
      replace (2 * T - 1) with (bcons true (T - 1)) by (rewrite bcons_spec; cbn [N.b2n]; lia).
      rewrite land_bcons. reflexivity.
Qed.

Lemma clearlow_spec p : N.land (Npos p) (Npos p - 1) = clearlowP p.
Proof.
  induction p as [q IH|q IH|]; cbn [clearlowP].
  - change (Npos q~1) with (bcons true (Npos q)) at 1.
    replace (Npos q~1 - 1) with (bcons false (Npos q)) by (rewrite bcons_spec; cbn [N.b2n]; lia).
    rewrite land_bcons, N.land_diag. reflexivity.
  - change (Npos q~0) with (bcons false (Npos q)) at 1.
    replace (Npos q~0 - 1) with (bcons true (Npos q - 1)) by (rewrite bcons_spec; cbn [N.b2n]; lia).
    rewrite land_bcons, IH. reflexivity.
  - reflexivity.
Qed.

(* the other Go spellings of "clear the lowest one-bit": [mask ^ bit], [mask - bit], [mask &^ bit] *)
Lemma lxor_lowbit p : N.lxor (Npos p) (Npos (lowbitP p)) = clearlowP p.
Proof.
  induction p as [q IH|q IH|]; cbn [lowbitP clearlowP]; [reflexivity | | reflexivity].
  change (N.lxor (Npos q~0) (Npos (lowbitP q)~0)) with (N.double (N.lxor (Npos q) (Npos (lowbitP q)))).
  rewrite IH. reflexivity.
Qed.
Lemma lowbit_disjoint p : N.land (clearlowP p) (Npos (lowbitP p)) = 0.
Proof.
  induction p as [q IH|q IH|]; cbn [lowbitP clearlowP]; [reflexivity | | reflexivity].
  change (Npos (lowbitP q)~0) with (N.double (Npos (lowbitP q))).
  rewrite (double_bcons (clearlowP q)), (double_bcons (Npos (lowbitP q))), land_bcons, IH. reflexivity.
Qed.
Lemma add_lowbit p : (clearlowP p + Npos (lowbitP p)) = Npos p.
Proof.
  rewrite (N.add_nocarry_lxor _ _ (lowbit_disjoint p)).
  rewrite <- lxor_lowbit, N.lxor_assoc, N.lxor_nilpotent, N.lxor_0_r. reflexivity.
Qed.
Lemma sub_lowbit p : (Npos p - Npos (lowbitP p)) = clearlowP p.
Proof. pose proof (add_lowbit p). lia. Qed.
Lemma lowbit_le p : (Npos (lowbitP p) <= Npos p).
Proof. pose proof (add_lowbit p). lia. Qed.
Lemma ldiff_lowbit p : N.ldiff (Npos p) (Npos (lowbitP p)) = clearlowP p.
Proof.
  rewrite <- (add_lowbit p) at 1. rewrite (N.add_nocarry_lxor _ _ (lowbit_disjoint p)).
  rewrite (N.lxor_lor _ _ (lowbit_disjoint p)).
  apply N.bits_inj; intro i. rewrite N.ldiff_spec, N.lor_spec.
  pose proof (f_equal (fun z => N.testbit z i) (lowbit_disjoint p)) as D. cbv beta in D.
  rewrite N.land_spec, N.bits_0 in D.
  destruct (N.testbit (clearlowP p) i), (N.testbit (Npos (lowbitP p)) i); cbn in *; congruence.
Qed.

Lemma popcount_clearlow p : popcount (clearlowP p) + 1 = popP p.
Proof.
  induction p as [q IH|q IH|]; cbn [clearlowP popP].
  - cbn [popcount popP]. lia.
  - change (N.double (clearlowP q)) with (bcons false (clearlowP q)). rewrite popcount_bcons. cbn [N.b2n]. lia.
  - reflexivity.
Qed.

Lemma popP_pos p : 1 <= popP p.
Proof. induction p; cbn [popP]; lia. Qed.

Lemma neg64_small m : 0 < m -> m < W64 -> neg64 m = W64 - m.
Proof. intros H0 H1. unfold neg64. rewrite (N.mod_small m) by exact H1. apply N.mod_small. lia. Qed.

Lemma maskbit_eq p : Npos p < W64 -> N.land (Npos p) (neg64 (Npos p)) = Npos (lowbitP p).
Proof. intro H. rewrite neg64_small by (try exact H; lia). apply (lowbit_spec 64). exact H. Qed.

Lemma clearlow_lt p : Npos p < W64 -> clearlowP p < W64.
Proof. intro H. rewrite <- clearlow_spec. apply land_lt_W64, H. Qed.

Lemma popP_le (n : nat) : forall p, Npos p < 2 ^ N.of_nat n -> popP p <= N.of_nat n.
Proof.
  induction n as [|n IH]; intros p Hp; [change (2 ^ N.of_nat 0) with 1 in Hp; lia|].
  rewrite Nat2N.inj_succ, N.pow_succ_r' in *.
  destruct p as [q|q|]; cbn [popP]; [ | | lia]; specialize (IH q ltac:(lia)); lia.
Qed.
Lemma popcount_le_64 mask : mask < W64 -> popcount mask <= 64.
Proof. intro H. destruct mask as [|p]; [cbn; lia|]. apply (popP_le 64%nat p H). Qed.

Lemma pdep_step p : forall y,
  pdep y (Npos p) = N.lor (if N.odd y then Npos (lowbitP p) else 0) (pdep (N.div2 y) (clearlowP p)).
Proof.
  induction p as [q IH|q IH|]; intro y; cbn [pdep pdepP lowbitP clearlowP].
  - change (pdepP (N.div2 y) q) with (pdep (N.div2 y) (Npos q)).
    destruct (N.odd y); cbn [bcons]; destruct (pdep (N.div2 y) (Npos q)); reflexivity.
  - change (pdepP y q) with (pdep y (Npos q)). rewrite IH, pdep_double.
    destruct (N.odd y); destruct (pdep (N.div2 y) (clearlowP q)); reflexivity.
  - destruct (N.odd y); reflexivity.
Qed.

(* testing the lowest bit through [x & 1] *)
Lemma odd_land_1 x : N.odd x = negb (N.land x 1 =? 0).
Proof.
  replace (N.land x 1) with (N.land x (bcons true 0)) by reflexivity.
  rewrite land_decomp_r, N.land_0_r, andb_true_r. destruct (N.odd x); reflexivity.
Qed.

Lemma pext_step p : forall x,
  pext x (Npos p) = bcons (negb (N.land x (Npos (lowbitP p)) =? 0)) (pext x (clearlowP p)).
Proof.
  induction p as [q IH|q IH|]; intro x; cbn [pext pextP lowbitP clearlowP].
  - change (pextP (N.div2 x) q) with (pext x (Npos q~0)). f_equal. apply odd_land_1.
  - change (pextP (N.div2 x) q) with (pext (N.div2 x) (Npos q)). rewrite IH, pext_double. f_equal.
    change (Npos (lowbitP q)~0) with (N.double (Npos (lowbitP q))). rewrite (double_bcons (Npos (lowbitP q))), land_decomp_r, andb_false_r.
    destruct (N.land (N.div2 x) (Npos (lowbitP q))); reflexivity.
  - f_equal. apply odd_land_1.
Qed.

Lemma pdep_loop_0 fuel x bit r : pdep_loop fuel x 0 bit r = r.
Proof. destruct fuel; reflexivity. Qed.
Lemma pext_loop_0 fuel x bit r : pext_loop fuel x 0 bit r = r.
Proof. destruct fuel; reflexivity. Qed.

(* Both loops keep their moving bit at 2^j mod 2^64, j = one-bits of the mask cleared so far; while the mask is not
   empty j < 64, so the bit is 2^j itself. *)
Lemma pdep_loop_spec x : forall fuel mask j result,
  popcount mask <= N.of_nat fuel -> mask < W64 -> j + popcount mask <= 64 ->
  pdep_loop fuel x mask (2 ^ j mod W64) result = N.lor result (pdep (x / 2 ^ j) mask).
Proof.
  induction fuel as [|f IH]; intros [|p] j result Hf Hm Hj.
  - rewrite pdep_loop_0. symmetry. apply N.lor_0_r.
  - pose proof (popP_pos p). cbn [popcount] in Hf. lia.
  - rewrite pdep_loop_0. symmetry. apply N.lor_0_r.
  - cbn [pdep_loop N.eqb popcount] in *. pose proof (popcount_clearlow p) as Hpc.
    rewrite (N.mod_small (2 ^ j)) by (apply pow2_lt_W64; lia).
    rewrite maskbit_eq, clearlow_spec, <- pow2_succ by exact Hm.
    rewrite IH; [ | lia | apply clearlow_lt, Hm | lia].
    rewrite (pdep_step p), land_pow2, testbit_odd_div, div_pow2_succ.
    destruct (N.odd (x / 2 ^ j)).
    + rewrite (proj2 (N.eqb_neq _ 0)) by (apply N.pow_nonzero; discriminate). symmetry. apply N.lor_assoc.
    + rewrite N.lor_0_l. reflexivity.
Qed.

Theorem pdep_go_eq_spec x mask : mask < W64 -> pdep_go x mask = pdep x mask.
Proof.
  intro Hm. pose proof (popcount_le_64 mask Hm) as Hp.
  rewrite <- (N.div_1_r x) at 2. apply (pdep_loop_spec x 64 mask 0 0); [exact Hp | exact Hm | lia].
Qed.

Lemma pext_loop_spec x : forall fuel mask j result,
  popcount mask <= N.of_nat fuel -> mask < W64 -> j + popcount mask <= 64 ->
  pext_loop fuel x mask (2 ^ j mod W64) result = N.lor result (N.shiftl (pext x mask) j).
Proof.
  induction fuel as [|f IH]; intros [|p] j result Hf Hm Hj.
  - rewrite pext_loop_0. cbn [pext]. rewrite N.shiftl_0_l. symmetry. apply N.lor_0_r.
  - pose proof (popP_pos p). cbn [popcount] in Hf. lia.
  - rewrite pext_loop_0. cbn [pext]. rewrite N.shiftl_0_l. symmetry. apply N.lor_0_r.
  - cbn [pext_loop N.eqb popcount] in *. pose proof (popcount_clearlow p) as Hpc.
    rewrite (N.mod_small (2 ^ j)) by (apply pow2_lt_W64; lia).
    rewrite maskbit_eq, clearlow_spec, <- pow2_succ by exact Hm.
    rewrite IH; [ | lia | apply clearlow_lt, Hm | lia].
    rewrite (pext_step p x), shiftl_bcons.
    destruct (N.land x (Npos (lowbitP p)) =? 0); cbn [negb].
    + rewrite N.lor_0_l. reflexivity.
    + symmetry. apply N.lor_assoc.
Qed.

Theorem pext_go_eq_spec x mask : mask < W64 -> pext_go x mask = pext x mask.
Proof.
  intro Hm. pose proof (popcount_le_64 mask Hm) as Hp.
  rewrite <- (N.shiftl_0_r (pext x mask)). apply (pext_loop_spec x 64 mask 0 0); [exact Hp | exact Hm | lia].
Qed.
