(* Proofs about base/Bits64.v: PDEP/PEXT laws, 64-bit words as sub-masks of ones64, popcount under rotation.
   Masks are taken apart one binary digit at a time ([N.binary_ind]); [bcons b a] is the number with lowest digit b
   above a, so [bcons false] is [N.double] and [bcons true] is [N.succ_double] by computation. *)
From Coq Require Import NArith Bool Lia.
From M Require Import base.Bits64.
Open Scope N_scope.

Lemma bcons_spec b a : bcons b a = 2 * a + N.b2n b.
Proof. destruct b; unfold bcons; [rewrite N.succ_double_spec | rewrite N.double_spec]; simpl N.b2n; lia. Qed.
Lemma bcons_odd b a : N.odd (bcons b a) = b.
Proof. destruct b, a; reflexivity. Qed.
Lemma bcons_div2 b a : N.div2 (bcons b a) = a.
Proof. destruct b, a; reflexivity. Qed.
Lemma bcons_decomp x : x = bcons (N.odd x) (N.div2 x).
Proof. destruct x as [|[p|p|]]; reflexivity. Qed.
Lemma bcons_inj b a b' a' : bcons b a = bcons b' a' -> b = b' /\ a = a'.
Proof.
  intro H. split.
  - rewrite <- (bcons_odd b a), H. apply bcons_odd.
  - rewrite <- (bcons_div2 b a), H. apply bcons_div2.
Qed.
Lemma double_bcons a : N.double a = bcons false a.
Proof. reflexivity. Qed.

Lemma land_bcons p a q b : N.land (bcons p a) (bcons q b) = bcons (p && q) (N.land a b).
Proof. destruct p, q, a as [|a], b as [|b]; reflexivity. Qed.
Lemma lor_bcons p a q b : N.lor (bcons p a) (bcons q b) = bcons (p || q) (N.lor a b).
Proof. destruct p, q, a as [|a], b as [|b]; reflexivity. Qed.
Lemma land_decomp_r x q b : N.land x (bcons q b) = bcons (N.odd x && q) (N.land (N.div2 x) b).
Proof. rewrite (bcons_decomp x) at 1. apply land_bcons. Qed.
Lemma odd_land x y : N.odd (N.land x y) = N.odd x && N.odd y.
Proof. rewrite (bcons_decomp y) at 1. rewrite land_decomp_r. apply bcons_odd. Qed.
Lemma div2_land x y : N.div2 (N.land x y) = N.land (N.div2 x) (N.div2 y).
Proof. rewrite (bcons_decomp y) at 1. rewrite land_decomp_r. apply bcons_div2. Qed.
Lemma odd_lor x y : N.odd (N.lor x y) = N.odd x || N.odd y.
Proof. rewrite (bcons_decomp x) at 1. rewrite (bcons_decomp y) at 1. rewrite lor_bcons. apply bcons_odd. Qed.
Lemma div2_lor x y : N.div2 (N.lor x y) = N.lor (N.div2 x) (N.div2 y).
Proof. rewrite (bcons_decomp x) at 1. rewrite (bcons_decomp y) at 1. rewrite lor_bcons. apply bcons_div2. Qed.

Lemma bcons_lor b R : bcons b R = N.lor (N.b2n b) (N.double R).
Proof. destruct b, R; reflexivity. Qed.
Lemma shiftl_bcons b R j :
  N.shiftl (bcons b R) j = N.lor (if b then 2 ^ j else 0) (N.shiftl R (j + 1)).
Proof.
  rewrite bcons_lor, N.shiftl_lor. f_equal.
  - rewrite N.shiftl_mul_pow2. destruct b; cbn [N.b2n]; lia.
  - rewrite !N.shiftl_mul_pow2, N.double_spec, N.add_1_r, N.pow_succ_r'. lia.
Qed.

Lemma mod_pow2_succ x k : x mod 2 ^ (1 + k) = bcons (N.odd x) (N.div2 x mod 2 ^ k).
Proof.
  rewrite N.pow_add_r, N.pow_1_r.
  rewrite N.mod_mul_r by (try apply N.pow_nonzero; lia).
  rewrite bcons_spec, N.div2_div, <- N.bit0_mod, N.bit0_odd. lia.
Qed.

Lemma pow2_succ j : 2 ^ (j + 1) = 2 ^ j * 2.
Proof. rewrite N.add_1_r, N.pow_succ_r'. apply N.mul_comm. Qed.
Lemma div_pow2_succ x j : x / 2 ^ (j + 1) = N.div2 (x / 2 ^ j).
Proof. rewrite N.div2_div, N.div_div, pow2_succ by (try apply N.pow_nonzero; lia). reflexivity. Qed.
Lemma testbit_odd_div x j : N.testbit x j = N.odd (x / 2 ^ j).
Proof. rewrite N.testbit_odd, N.shiftr_div_pow2. reflexivity. Qed.
Lemma land_pow2 x j : N.land x (2 ^ j) = if N.testbit x j then 2 ^ j else 0.
Proof.
  apply N.bits_inj; intro i. rewrite N.land_spec, N.pow2_bits_eqb.
  destruct (N.eqb_spec j i) as [->|Hne].
  - destruct (N.testbit x i) eqn:E; [rewrite N.pow2_bits_true | rewrite N.bits_0]; reflexivity.
  - rewrite andb_false_r. destruct (N.testbit x j); [rewrite N.pow2_bits_false by exact Hne | rewrite N.bits_0]; reflexivity.
Qed.
Lemma digits_lt a b A B : a < A -> b < B -> a * B + b < A * B.
Proof. intros Ha Hb. apply N.lt_le_trans with ((a + 1) * B); [lia | apply N.mul_le_mono_r; lia]. Qed.

(* what one more digit of the mask does: a 0 passes the source on, a 1 takes (pdep) or yields (pext) its lowest bit *)
Lemma pdep_double x r : pdep x (N.double r) = N.double (pdep x r).
Proof. destruct r; reflexivity. Qed.
Lemma pdep_succ_double x r : pdep x (N.succ_double r) = bcons (N.odd x) (pdep (N.div2 x) r).
Proof. destruct r; reflexivity. Qed.
Lemma pext_double x r : pext x (N.double r) = pext (N.div2 x) r.
Proof. destruct r; reflexivity. Qed.
Lemma pext_succ_double x r : pext x (N.succ_double r) = bcons (N.odd x) (pext (N.div2 x) r).
Proof. destruct r; reflexivity. Qed.
Lemma popcount_bcons b a : popcount (bcons b a) = N.b2n b + popcount a.
Proof. destruct b, a; reflexivity. Qed.

Theorem pext_pdep x m : pext (pdep x m) m = x mod 2 ^ popcount m.
Proof.
  revert x. induction m as [|m IH|m IH] using N.binary_ind; intro x.
  - rewrite N.pow_0_r, N.mod_1_r. reflexivity.
  - rewrite pdep_double, pext_double, N.div2_double, (popcount_bcons false). apply IH.
  - rewrite pdep_succ_double, pext_succ_double, bcons_odd, bcons_div2, IH.
    rewrite (popcount_bcons true). symmetry. apply mod_pow2_succ.
Qed.

Theorem pdep_pext x m : pdep (pext x m) m = N.land x m.
Proof.
  revert x. induction m as [|m IH|m IH] using N.binary_ind; intro x.
  - rewrite N.land_0_r. reflexivity.
  - rewrite pext_double, pdep_double, IH, (double_bcons m), land_decomp_r, andb_false_r. reflexivity.
  - rewrite pext_succ_double, pdep_succ_double, bcons_odd, bcons_div2, IH.
    change (N.succ_double m) with (bcons true m). rewrite land_decomp_r, andb_true_r. reflexivity.
Qed.

Lemma pdep_land x y m : pdep (N.land x y) m = N.land (pdep x m) (pdep y m).
Proof.
  revert x y. induction m as [|m IH|m IH] using N.binary_ind; intros x y.
  - reflexivity.
  - rewrite !pdep_double, IH. symmetry. apply (land_bcons false _ false).
  - rewrite !pdep_succ_double, land_bcons, odd_land, div2_land, IH. reflexivity.
Qed.

Lemma pext_lor x y m : pext (N.lor x y) m = N.lor (pext x m) (pext y m).
Proof.
  revert x y. induction m as [|m IH|m IH] using N.binary_ind; intros x y.
  - reflexivity.
  - rewrite !pext_double, div2_lor. apply IH.
  - rewrite !pext_succ_double, lor_bcons, odd_lor, div2_lor, IH. reflexivity.
Qed.

Lemma pdep_sub_mask x m : N.land (pdep x m) m = pdep x m.
Proof.
  revert x. induction m as [|m IH|m IH] using N.binary_ind; intro x.
  - reflexivity.
  - rewrite pdep_double. rewrite <- (IH x) at 2. apply (land_bcons false _ false).
  - rewrite pdep_succ_double. rewrite <- (IH (N.div2 x)) at 2. rewrite <- (andb_true_r (N.odd x)) at 2.
    apply (land_bcons _ _ true).
Qed.

Lemma pext_0 m : pext 0 m = 0.
Proof.
  induction m as [|m IH|m IH] using N.binary_ind; [reflexivity | |].
  - rewrite pext_double. exact IH.
  - rewrite pext_succ_double. change (N.div2 0) with 0. rewrite IH. reflexivity.
Qed.
Lemma pdep_0 m : pdep 0 m = 0.
Proof.
  induction m as [|m IH|m IH] using N.binary_ind; [reflexivity | |].
  - rewrite pdep_double, IH. reflexivity.
  - rewrite pdep_succ_double. change (N.div2 0) with 0. rewrite IH. reflexivity.
Qed.

(* 64-bit words: lemmas are stated with [a < W64]; [fits64 a] (a is a sub-mask of ones64, the form the bitwise laws
   rewrite with) is used inside this file only, [fits64_lt] converts.  [not64] is the complement inside ones64. *)
Lemma land_lxor_distr_r a b c : N.land a (N.lxor b c) = N.lxor (N.land a b) (N.land a c).
Proof.
  apply N.bits_inj; intro i. rewrite N.lxor_spec, !N.land_spec, N.lxor_spec.
  destruct (N.testbit a i), (N.testbit b i), (N.testbit c i); reflexivity.
Qed.
Lemma land_lor_absorb a b : N.land (N.lor a b) b = b.
Proof.
  apply N.bits_inj; intro i. rewrite N.land_spec, N.lor_spec.
  destruct (N.testbit a i), (N.testbit b i); reflexivity.
Qed.

Definition fits64 (a : N) : Prop := N.land a ones64 = a.
Lemma W64_nz : W64 <> 0. Proof. discriminate. Qed.
Lemma fits64_lt a : a < W64 <-> fits64 a.
Proof.
  unfold fits64, ones64, W64. rewrite N.land_ones. split; intro H.
  - apply N.mod_small; assumption.
  - rewrite <- H. apply N.mod_lt. discriminate.
Qed.
Lemma fits64_ones : fits64 ones64.
Proof. unfold fits64. apply N.land_diag. Qed.

Lemma land_ones64 a : a < W64 -> N.land a ones64 = a.
Proof. apply fits64_lt. Qed.
Lemma sub_mask_lt_W64 a b : N.land a b = a -> b < W64 -> a < W64.
Proof. rewrite !fits64_lt. unfold fits64. intros Ha Hb. rewrite <- Ha, <- N.land_assoc, Hb. reflexivity. Qed.
Lemma land_lt_W64 a b : a < W64 -> N.land a b < W64.
Proof. apply sub_mask_lt_W64. rewrite (N.land_comm a b), <- N.land_assoc, N.land_diag. reflexivity. Qed.
Lemma lor_lt_W64 a b : a < W64 -> b < W64 -> N.lor a b < W64.
Proof. rewrite !fits64_lt. unfold fits64. intros Ha Hb. rewrite N.land_lor_distr_l, Ha, Hb. reflexivity. Qed.
Lemma pdep_lt_W64 x m : m < W64 -> pdep x m < W64.
Proof. apply sub_mask_lt_W64, pdep_sub_mask. Qed.
Lemma pow2_lt_W64 j : j < 64 -> 2 ^ j < W64.
Proof. intro H. unfold W64. apply N.pow_lt_mono_r; lia. Qed.

Lemma not64_lt_W64 a : a < W64 -> not64 a < W64.
Proof.
  rewrite !fits64_lt. unfold fits64, not64. intro Ha.
  rewrite N.land_comm, land_lxor_distr_r, N.land_diag, (N.land_comm ones64), Ha. reflexivity.
Qed.
Lemma land_not64 a : a < W64 -> N.land a (not64 a) = 0.
Proof.
  intro Ha. apply land_ones64 in Ha. unfold not64.
  rewrite land_lxor_distr_r, N.land_diag, Ha. apply N.lxor_nilpotent.
Qed.
Lemma lor_not64 a : a < W64 -> N.lor a (not64 a) = ones64.
Proof.
  intro Ha. rewrite <- N.lxor_lor by (apply land_not64, Ha).
  unfold not64. rewrite <- N.lxor_assoc, N.lxor_nilpotent. apply N.lxor_0_l.
Qed.

Lemma popcount_splitN n : forall a b, b < 2 ^ n -> popcount (a * 2 ^ n + b) = popcount a + popcount b.
Proof.
  induction n as [|n IH] using N.peano_ind; intros a b Hb.
  - rewrite N.pow_0_r in *. replace b with 0 by lia. rewrite N.mul_1_r, !N.add_0_r. reflexivity.
  - rewrite N.pow_succ_r' in *.
    assert (Hd : N.div2 b < 2 ^ n) by (rewrite N.div2_div; apply N.div_lt_upper_bound; lia).
    replace (a * (2 * 2 ^ n) + b) with (bcons (N.odd b) (a * 2 ^ n + N.div2 b)).
    + rewrite popcount_bcons, IH by exact Hd. rewrite (bcons_decomp b) at 3. rewrite popcount_bcons. lia.
    + rewrite bcons_spec. rewrite (bcons_decomp b) at 3. rewrite bcons_spec. lia.
Qed.

Lemma pow2_split s : s <= 64 -> 2 ^ (64 - s) * 2 ^ s = W64.
Proof. intro H. rewrite <- N.pow_add_r. unfold W64. f_equal. lia. Qed.

(* the two blocks that rotl64 x s swaps *)
Lemma rotl64_blocks x s : s <= 64 -> x < W64 -> x mod 2 ^ (64 - s) < 2 ^ (64 - s) /\ x / 2 ^ (64 - s) < 2 ^ s.
Proof.
  intros Hs Hx. assert (P : 2 ^ (64 - s) <> 0) by (apply N.pow_nonzero; discriminate).
  split; [apply N.mod_lt, P | apply N.div_lt_upper_bound; [exact P | rewrite pow2_split; assumption]].
Qed.

Lemma rotl64_lt x s : s <= 64 -> x < W64 -> rotl64 x s < W64.
Proof.
  intros Hs Hx. destruct (rotl64_blocks x s Hs Hx). rewrite <- (pow2_split s Hs). apply digits_lt; assumption.
Qed.

Lemma popcount_rotl64 x s : s <= 64 -> x < W64 -> popcount (rotl64 x s) = popcount x.
Proof.
  intros Hs Hx. destruct (rotl64_blocks x s Hs Hx) as [Hlo Hhi]. unfold rotl64.
  rewrite popcount_splitN by exact Hhi.
  rewrite (N.div_mod x (2 ^ (64 - s))) at 3 by (apply N.pow_nonzero; discriminate).
  rewrite (N.mul_comm (2 ^ (64 - s))), popcount_splitN by exact Hlo. apply N.add_comm.
Qed.

Lemma repeat32_lt v : v < 2 ^ 32 -> repeat32 v < W64.
Proof. intro H. apply (digits_lt v v (2 ^ 32) (2 ^ 32)); exact H. Qed.
Lemma popcount_repeat32 v : v < 2 ^ 32 -> popcount (repeat32 v) = 2 * popcount v.
Proof. intro H. unfold repeat32. rewrite popcount_splitN by exact H. lia. Qed.
Lemma popcount_ones64 : popcount ones64 = 64.
Proof. reflexivity. Qed.
