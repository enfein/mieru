(* C03, graceful close: the schedules on which a close ends in a clean EOF after a strict prefix, and what holds of every
   schedule of model/CloseProto.v for the peer (INV) and for the closer on TCP (LINV, TINV). *)
From Coq Require Import List ZArith NArith Bool Lia Sorted.
From M Require Import gen.Consts model.CloseProto.
Import ListNotations.
Open Scope N_scope.

(* If Write succeeded for all of w (written = n) and the peer's Read returned EOF, the peer has read all of w. *)
Definition no_clean_truncation (c : cfg) : Prop :=
  forall sched st, run c init sched = Some st -> written st = c_n c -> rd st = REof -> complete c st.

Definition clean_truncation (c : cfg) (st : state) : Prop :=
  written st = c_n c /\ rd st = REof /\ rerr st = false /\
  exists rest, rest <> [] /\ all_segments c = read_so_far st ++ rest.

Lemma clean_truncation_not_complete : forall c st, clean_truncation c st -> ~ complete c st.
Proof.
  intros c st (_ & _ & _ & rest & Hne & Heq) Hc. unfold complete in Hc. rewrite Hc in Heq.
  rewrite <- (app_nil_r (all_segments c)) in Heq at 1. apply app_inv_head in Heq. congruence.
Qed.

Lemma run_app c a b : forall st st1 st2,
  run c st a = Some st1 -> run c st1 b = Some st2 -> run c st (a ++ b) = Some st2.
Proof.
  induction a as [|ch a IH]; intros st st1 st2 Ha Hb; cbn [run app] in *.
  - injection Ha as ->. exact Hb.
  - destruct (step c st ch); [eauto | discriminate].
Qed.

Lemma run_invariant c (P : state -> Prop) sched :
  (forall st ch st', In ch sched -> P st -> step c st ch = Some st' -> P st') ->
  forall st st', P st -> run c st sched = Some st' -> P st'.
Proof.
  induction sched as [|ch rest IH]; intros Hstep st st' HP H; cbn [run] in H.
  - injection H as <-. exact HP.
  - destruct (step c st ch) as [st1|] eqn:S; [|discriminate].
    apply (IH (fun st ch st' Hin => Hstep st ch st' (or_intror Hin)) st1); [|exact H].
    exact (Hstep st ch st1 (or_introl eq_refl) HP S).
Qed.

(* The bounded wait of closeWithError: while lastSend stays below the close request's number an iteration only counts,
   and the c_wait-th gives up.  A schedule that sits out the wait is evaluated up to the wait and from its expiry on; the
   1000 iterations in between are slow to check again without the vm. *)
Definition expire (c : cfg) (st : state) : state :=
  set_sender st (written st) (queue st) (sbuf st) (nextSend st) (lastSend st) CExpired (c_wait c) (closeSeq st)
             (olock st) (tcpnet st) (udpnet st).

Lemma tick_waits c st : cph st = CWait -> lastSend st < closeSeq st ->
  step c st CTick = Some (set_sender st (written st) (queue st) (sbuf st) (nextSend st) (lastSend st)
                            (if ticks st + 1 =? c_wait c then CExpired else CWait) (ticks st + 1) (closeSeq st)
                            (olock st) (tcpnet st) (udpnet st)).
Proof.
  intros Hp Hl. apply N.leb_gt in Hl. unfold step. rewrite Hp, Hl. destruct (ticks st + 1 =? c_wait c); reflexivity.
Qed.

Lemma wait_expires c k : forall st,
  cph st = CWait -> lastSend st < closeSeq st -> ticks st + N.of_nat (S k) = c_wait c ->
  run c st (repeat_choice CTick (S k)) = Some (expire c st).
Proof.
  induction k as [|k IH]; intros st Hp Hl Ht; change (repeat_choice CTick (S ?n)) with (CTick :: repeat_choice CTick n);
    cbn [run]; rewrite (tick_waits c st Hp Hl).
  - replace (ticks st + 1) with (c_wait c) by lia. rewrite N.eqb_refl. reflexivity.
  - replace (ticks st + 1 =? c_wait c) with false by (symmetry; apply N.eqb_neq; lia).
    rewrite IH; [reflexivity | reflexivity | exact Hl | cbn [ticks set_sender]; lia].
Qed.

(* the subgoals of an application, in order: the run up to the wait (evaluate); phase CWait; lastSend < closeSeq; no
   iteration counted yet; c_wait <> 0; the run from the expired state (evaluate) *)
Lemma run_through_wait c pre post st1 st2 :
  run c init pre = Some st1 -> cph st1 = CWait -> lastSend st1 < closeSeq st1 -> ticks st1 = 0 -> c_wait c <> 0 ->
  run c (expire c st1) post = Some st2 ->
  run c init (pre ++ repeat_choice CTick (N.to_nat (c_wait c)) ++ post) = Some st2.
Proof.
  intros Hpre Hp Hl Ht Hw Hpost. apply (run_app _ _ _ _ _ _ Hpre). apply (run_app _ _ _ _ (expire c st1)); [|exact Hpost].
  destruct (N.to_nat (c_wait c)) as [|k] eqn:E; [lia|]. apply wait_expires; [exact Hp | exact Hl | lia].
Qed.

(* closeWithError polls 1000 times, 1 ms apart (session.go) *)
Lemma close_wait_is_one_second : (C03_closeWaitIterations * C03_closeWaitTickNs = 1000000000)%Z.
Proof. reflexivity. Qed.

Definition udp3 : cfg := current_cfg UDP 3 16 0.
Definition udp3_win1 : cfg := current_cfg UDP 3 1 0.

Definition w_udp_loss : list choice :=
  [CWrite; CWrite; CWrite; CClose; ONew; ONew; ONew; ONew; CTick; DUdp 0; DUdp 2; DUdp 3; RTest; RTest; RWaitClosed].

Lemma udp_loss_refuted :
  exists sched st, run udp3 init sched = Some st /\ clean_truncation udp3 st /\ cph st = CClosed /\ discarded st = false
                   /\ read_so_far st = [0].
Proof.
  exists w_udp_loss. eexists. split; [vm_compute; reflexivity|].
  repeat split. exists [1; 2]. split; [discriminate | reflexivity].
Qed.

Definition w_udp_reorder : list choice :=
  [CWrite; CWrite; CWrite; CClose; ONew; ONew; ONew; ONew; CTick; DUdp 0; DUdp 3; DUdp 1; DUdp 2; RTest; RTest; RWaitClosed].

Lemma udp_reorder_refuted :
  exists sched st, run udp3 init sched = Some st /\ clean_truncation udp3 st /\ read_so_far st = [0].
Proof.
  exists w_udp_reorder. eexists. split; [vm_compute; reflexivity|].
  repeat split. exists [1; 2]. split; [discriminate | reflexivity].
Qed.

Definition udp3_rcap2 : cfg := mkCfg UDP 3 close_wait_iterations true false 16 0 2 true.
Definition w_udp_rwindow : list choice :=
  [CWrite; CWrite; CWrite; CClose; ONew; ONew; ONew; ONew; CTick; DUdp 0; DUdp 1; DUdp 2; DUdp 3; RTest; RTest; RTest; RWaitClosed].

Lemma udp_receive_window_refuted :
  exists sched st, run udp3_rcap2 init sched = Some st /\ clean_truncation udp3_rcap2 st /\ discarded st = false
                   /\ gap st = true /\ read_so_far st = [0; 1].
Proof.
  exists w_udp_rwindow. eexists. split; [vm_compute; reflexivity|].
  repeat split. exists [2]. split; [discriminate | reflexivity].
Qed.

Definition tcp1_before : cfg := prefix_cfg TCP 1 0 0.

Definition w_tcp_race : list choice :=
  [CWrite; CClose; OStart; OSeg; OSeg; OSeg; CTick; RTest; DTcp; DTcp; RWaitClosed].

Lemma tcp_read_race_refuted_before_fix :
  exists sched st, run tcp1_before init sched = Some st /\ clean_truncation tcp1_before st /\ rqueue st = [0] /\ discarded st = false.
Proof.
  exists w_tcp_race. eexists. split; [vm_compute; reflexivity|].
  repeat split. exists [0]. split; [discriminate | reflexivity].
Qed.

Definition udp3_before : cfg := prefix_cfg UDP 3 1 0.
Definition w_udp_ackstamp : list choice := [CWrite; CWrite; CWrite; CClose; ONew; OAck; CTick].

Lemma udp_ack_stamp_refuted_before_fix :
  exists sched st, run udp3_before init sched = Some st /\ cph st = CClosed /\ ticks st = 0 /\ discarded st = true
                   /\ udpnet st = [Data 0] /\ queue st = [].
Proof. exists w_udp_ackstamp. eexists. split; [vm_compute; reflexivity|]. repeat split; reflexivity. Qed.

Lemma udp_ack_stamp_now :
  exists st, run udp3_win1 init w_udp_ackstamp = Some st /\ cph st = CWait /\ discarded st = false
             /\ queue st = [Data 1; Data 2; CloseReq 3].
Proof. eexists. split; [vm_compute; reflexivity|]. repeat split; reflexivity. Qed.

(* schedules of the scenarios whose statements stand in props/C03.v *)
Definition w_udp_window : list choice :=
  [CWrite; CWrite; CWrite; CClose; ONew] ++ repeat_choice CTick (N.to_nat close_wait_iterations) ++
  [CForce; DUdp 0; DUdp 1; RTest; RTest; RWaitClosed].

Definition w_tcp_starved : list choice :=
  [CWrite; CWrite; CWrite; CClose] ++ repeat_choice CTick (N.to_nat close_wait_iterations) ++ [CForce; DTcp; RTest; RWaitClosed].

Definition w_tcp_backpressure : list choice :=
  [CWrite; CWrite; CWrite; CClose; OStart; OSeg] ++ repeat_choice CTick (N.to_nat close_wait_iterations) ++
  [DTcp; OSeg; DTcp; OSeg; DTcp; OSeg; OSeg; CForce; DTcp; RTest; RTest; RTest; RTest; RWaitClosed].

Definition w_tcp_stall_now : list choice :=
  [CWrite; CWrite; CWrite; CClose; OStart; ODeq] ++ repeat_choice CTick (N.to_nat close_wait_iterations) ++
  [OOut; ODeq; OOut; ODeq; OOut; ODeq; OOut; ODeq; CForce; DTcp; DTcp; DTcp; DTcp; RTest; RTest; RTest; RTest; RWaitClosed].

Definition w_err_eof : list choice :=
  [CWrite; CWrite; OStart; OSeg; DTcp; RInputErr; RErrClose; RTest; RTest; RWaitClosed].

Definition w_udp_ok : list choice :=
  [CWrite; CWrite; CWrite; CClose; ONew; ONew; ONew; ONew; CTick; DUdp 1; DUdp 0; DUdp 2; DUdp 1; DUdp 3; RTest; RTest; RTest; RTest; RWaitClosed].
Definition w_tcp_ok : list choice :=
  [CWrite; CWrite; CWrite; CClose; OStart; OSeg; OSeg; OSeg; OSeg; OSeg; CTick; DTcp; DTcp; RTest; DTcp; DTcp; RTest; RTest; RTest; RWaitClosed].

(* A label touches one half of the state: the closer, its output loop and the delivery of acks leave the peer's fields
   alone, the delivery of segments and Read the closer's.  A step lemma analyses only the labels of its half. *)
Definition is_peer (ch : choice) : bool :=
  match ch with
  | DTcp | DUdp _ | RTest | RWaitClosed | RWaitErr | RWaitNotEmpty | RAtomic | RInputErr | RErrClose => true
  | _ => false
  end.

Definition peer_of (st : state) :=
  (nextRecv st, rqueue st, rclosed st, rerr st, rd st, rlog st, gap st, ooo st).
Definition sender_of (st : state) :=
  (queue st, inflight st, olock st, lastSend st, nextSend st, closeSeq st, cph st, discarded st).

(* case analysis along the matches of a model function, innermost first *)
Ltac split_matches :=
  repeat match goal with |- context [match ?x with _ => _ end] =>
           lazymatch x with context [match _ with _ => _ end] => fail | _ => destruct x end
         end.
(* the same in a hypothesis [step c st ch = Some st']: disabled branches go; every scrutinee leaves its equation in the
   context under a generated name (a guard [_ && _ = true], [queue st = s :: q], ...), to be fetched by [eassumption],
   and is replaced by its value in st' as well *)
Ltac step_cases H :=
  repeat match type of H with
         | context [match ?x with _ => _ end] => destruct x eqn:?; try discriminate H
         end;
  injection H as <-.

Lemma recv_input_sender c st s : sender_of (recv_input c st s) = sender_of st.
Proof. unfold recv_input. split_matches; reflexivity. Qed.

Lemma recv_input_rd c st s : rd (recv_input c st s) = rd st.
Proof. unfold recv_input. split_matches; reflexivity. Qed.

Lemma sender_step_peer c st ch : is_peer ch = false -> forall st', step c st ch = Some st' -> peer_of st' = peer_of st.
Proof. intros P. destruct ch; try discriminate P; unfold step; split_matches; intros st' [= <-]; reflexivity. Qed.

Lemma peer_step_sender c st ch : is_peer ch = true -> forall st', step c st ch = Some st' -> sender_of st' = sender_of st.
Proof.
  intros P. destruct ch; try discriminate P; unfold step; split_matches; intros st' [= <-];
    rewrite ?recv_input_sender; reflexivity.
Qed.

Lemma eof_needs_closed c st ch st' : step c st ch = Some st' -> rd st' = REof -> rd st = REof \/ rclosed st = true.
Proof.
  intros H E. destruct (is_peer ch) eqn:P.
  2: { apply (sender_step_peer _ _ _ P) in H. injection H; intros. left; congruence. }
  destruct ch; try discriminate P; unfold step in H.
  - (* DTcp *) step_cases H. rewrite recv_input_rd in E. left; exact E.
  - (* DUdp *) step_cases H. rewrite recv_input_rd in E. left; exact E.
  - (* RTest *) step_cases H; discriminate E.
  - (* RWaitClosed *) step_cases H; right; assumption.
  - (* RWaitErr *) step_cases H. discriminate E.
  - (* RWaitNotEmpty *) step_cases H. discriminate E.
  - (* RAtomic *) step_cases H; try discriminate E. right; assumption.
  - (* RInputErr *) step_cases H. left; exact E.
  - (* RErrClose *) step_cases H. left; exact E.
Qed.

Lemma iota_snoc : forall k a, iota a (S k) = iota a k ++ [a + N.of_nat k].
Proof.
  induction k as [|k IH]; intros a.
  - cbn. rewrite N.add_0_r. reflexivity.
  - change (iota a (S (S k))) with (a :: iota (a + 1) (S k)). rewrite IH. cbn [iota app].
    f_equal. f_equal. f_equal. lia.
Qed.

Lemma iota_next : forall nr, iota 0 (N.to_nat (nr + 1)) = iota 0 (N.to_nat nr) ++ [nr].
Proof.
  intros nr. replace (N.to_nat (nr + 1)) with (S (N.to_nat nr)) by lia.
  rewrite iota_snoc. rewrite N2Nat.id. reflexivity.
Qed.

Lemma flush_inv : forall fuel pre nr rb rq nr' rb' rq',
  flush fuel nr rb rq = (nr', rb', rq') ->
  pre ++ rq = iota 0 (N.to_nat nr) -> pre ++ rq' = iota 0 (N.to_nat nr').
Proof.
  induction fuel as [|f IH]; intros pre nr rb rq nr' rb' rq' H Hp; cbn in H.
  - inversion H; subst. assumption.
  - destruct (memN nr rb).
    + eapply IH; [exact H|]. rewrite app_assoc, Hp. symmetry. apply iota_next.
    + inversion H; subst. assumption.
Qed.

(* The peer's invariant.  Part 2: recv_input sets gap exactly when it acts on a close request with nextRecv <> c_n.
   Part 3 needs a Read that cannot return EOF past a non-empty queue: one that re-tests it (c_retest) or, failing that,
   a schedule without RTest; a = true stands for the latter and buys part 4 at the price of excluding RTest. *)
Definition INV (a : bool) (c : cfg) (st : state) : Prop :=
  (ooo st = false -> rev (rlog st) ++ rqueue st = iota 0 (N.to_nat (nextRecv st))) /\
  (rclosed st = true -> rerr st = false -> gap st = false -> nextRecv st = c_n c) /\
  (c_retest c = true \/ a = true -> rd st = REof -> rclosed st = true /\ rqueue st = []) /\
  (a = true -> rd st <> RTested).

Lemma inv_init : forall a c, INV a c init.
Proof. intros a c. unfold INV; cbn. repeat split; try discriminate; auto. Qed.

(* while closedChan is open only the first part has anything to say *)
Lemma inv_open a c st st' : INV a c st -> rclosed st = false -> rclosed st' = false -> rd st' = rd st ->
  (ooo st' = false -> rev (rlog st') ++ rqueue st' = iota 0 (N.to_nat (nextRecv st'))) -> INV a c st'.
Proof.
  intros (_ & _ & I3 & I4) Hc Hc' Hr I1'. unfold INV. rewrite Hc', Hr.
  split; [exact I1'|]. split; [discriminate|]. split; [|exact I4].
  intros Hra E. destruct (I3 Hra E). congruence.
Qed.

Lemma inv_recv_input : forall a c st s, INV a c st -> INV a c (recv_input c st s).
Proof.
  intros a c st s I. unfold recv_input.
  destruct (rclosed st || rerr st) eqn:E; [exact I|].
  apply orb_false_elim in E. destruct E as [Ec Ee].
  destruct s as [q|q]; [destruct (c_tr c); [|destruct (q <? nextRecv st); [|destruct (c_rcap c <=? lenN (rbuf st) + lenN (rqueue st))]]|].
  - (* TCP *) apply (inv_open a c st _ I Ec); try reflexivity. cbn. intro Ho. apply orb_false_elim in Ho. destruct Ho as [Ho Hq].
    apply negb_false_iff, N.eqb_eq in Hq. subst q.
    rewrite app_assoc, (proj1 I Ho). symmetry. apply iota_next.
  - (* UDP, already received: ack only *) apply (inv_open a c st _ I Ec); try reflexivity. exact (proj1 I).
  - (* UDP, no receive window: ack only *) apply (inv_open a c st _ I Ec); try reflexivity. exact (proj1 I).
  - (* UDP: into recvBuf, then the in-order run moves to recvQueue *)
    destruct (flush _ _ _ _) as [[nr rb'] rq'] eqn:F.
    apply (inv_open a c st _ I Ec); try reflexivity. cbn. intro Ho. exact (flush_inv _ _ _ _ _ _ _ _ F (proj1 I Ho)).
  - (* close request *) destruct I as (I1 & I2 & I3 & I4). unfold INV; cbn.
    split; [exact I1|]. split; [|split; [|exact I4]].
    + intros _ _ Hg. apply orb_false_elim in Hg. destruct Hg as [_ Hg].
      apply negb_false_iff, N.eqb_eq in Hg. exact Hg.
    + intros Hra E. destruct (I3 Hra E). congruence.
Qed.

Lemma inv_read a c st q r : INV a c st -> rqueue st = q :: r ->
  INV a c (set_peer st (acks st) (nextRecv st) (rbuf st) r (rclosed st) (rerr st) RIdle (q :: rlog st) (gap st)).
Proof.
  intros (I1 & I2 & I3 & I4) E. unfold INV; cbn.
  split; [|split; [exact I2|split; [discriminate|discriminate]]].
  intro Ho. rewrite <- (I1 Ho), E, <- app_assoc. reflexivity.
Qed.

(* rq, rc, re: what step_cases has put in the place of rqueue st, rclosed st, rerr st *)
Lemma inv_rd a c st rq rc re r : INV a c st ->
  (c_retest c = true \/ a = true -> r = REof -> rc = true /\ rq = []) -> (a = true -> r <> RTested) ->
  rqueue st = rq -> rclosed st = rc -> rerr st = re ->
  INV a c (set_peer st (acks st) (nextRecv st) (rbuf st) rq rc re r (rlog st) (gap st)).
Proof. intros (I1 & I2 & I3 & I4) H3 H4 <- <- <-. unfold INV; cbn. auto. Qed.

Lemma inv_err a c st rc re : INV a c st -> re = true -> (rclosed st = true -> rc = true) ->
  INV a c (set_peer st (acks st) (nextRecv st) (rbuf st) (rqueue st) rc re (rd st) (rlog st) (gap st)).
Proof.
  intros (I1 & I2 & I3 & I4) -> Hc. unfold INV; cbn.
  split; [exact I1|]. split; [discriminate|]. split; [|exact I4].
  intros Hra E. destruct (I3 Hra E). auto.
Qed.

Lemma inv_step a c st ch st' :
  INV a c st -> (a = true -> is_rtest ch = false) -> step c st ch = Some st' -> INV a c st'.
Proof.
  intros I Hat H. destruct (is_peer ch) eqn:P.
  2: { apply (sender_step_peer _ _ _ P) in H. revert I. unfold INV. injection H as -> -> -> -> -> -> -> ->. exact id. }
  destruct ch; try discriminate P; unfold step in H.
  - (* DTcp *) step_cases H. apply inv_recv_input. exact I.
  - (* DUdp *) step_cases H. apply inv_recv_input. exact I.
  - (* RTest *) step_cases H.
    + apply inv_rd; [exact I | discriminate | intro Ha; discriminate (Hat Ha) | assumption || reflexivity ..].
    + apply inv_read; assumption.
  - (* RWaitClosed *) step_cases H.
    + apply inv_rd; [exact I | auto | discriminate | assumption || reflexivity ..].
    + apply inv_rd; [exact I | discriminate | discriminate | assumption || reflexivity ..].
    + (* EOF past a non-empty queue: a Read that neither re-tests nor is atomic *)
      apply inv_rd; [exact I | | discriminate | assumption || reflexivity ..].
      intros [Hr | Ha]; [congruence | destruct (proj2 (proj2 (proj2 I)) Ha); assumption].
  - (* RWaitErr *) step_cases H. apply inv_rd; [exact I | discriminate | discriminate | assumption || reflexivity ..].
  - (* RWaitNotEmpty *) step_cases H. apply inv_rd; [exact I | discriminate | discriminate | assumption || reflexivity ..].
  - (* RAtomic *) step_cases H.
    + apply inv_rd; [exact I | auto | discriminate | assumption || reflexivity ..].
    + apply inv_rd; [exact I | discriminate | discriminate | assumption || reflexivity ..].
    + apply inv_read; assumption.
  - (* RInputErr *) step_cases H. apply inv_err; auto.
  - (* RErrClose *) destruct (rerr st && negb (rclosed st)) eqn:G; [|discriminate H]. injection H as <-.
    apply andb_prop in G as [He _]. apply inv_err; auto.
Qed.

(* INV along every schedule; a = true asks the schedule to treat Read as atomic *)
Lemma inv_run a c sched st : run c init sched = Some st -> (a = true -> atomic_reads sched = true) -> INV a c st.
Proof.
  intros H Hat. apply (run_invariant c (INV a c) sched) with (st := init); [|apply inv_init|exact H].
  intros st0 ch st1 Hin I. apply inv_step; [exact I|]. intro Ha.
  apply negb_true_iff. exact (proj1 (forallb_forall _ _) (Hat Ha) ch Hin).
Qed.

Theorem eof_implies_complete : forall c sched st,
  run c init sched = Some st ->
  c_retest c = true \/ atomic_reads sched = true ->
  rd st = REof -> rerr st = false -> gap st = false -> ooo st = false ->
  complete c st.
Proof.
  intros c sched st H Hra Heof He Hg Ho.
  (* with c_retest take a = false, so that inv_run asks nothing of the schedule; without it Hra says the schedule is atomic *)
  assert (I : INV (negb (c_retest c)) c st).
  { apply (inv_run _ c sched st H). intro Ha.
    destruct Hra as [Hr | Hr]; [rewrite Hr in Ha; discriminate Ha | exact Hr]. }
  destruct I as (I1 & I2 & I3 & _).
  destruct I3 as [Hc Hq]; [destruct (c_retest c); auto | exact Heof |].
  unfold complete, read_so_far, all_segments.
  rewrite <- (I2 Hc He Hg), <- (I1 Ho), Hq. symmetry. apply app_nil_r.
Qed.

Theorem reads_are_a_prefix : forall c sched st,
  run c init sched = Some st -> c_retest c = true -> ooo st = false ->
  read_so_far st ++ rqueue st = iota 0 (N.to_nat (nextRecv st)).
Proof. intros c sched st H _. apply (inv_run false c) in H; [exact (proj1 H) | discriminate]. Qed.

(* what is still in the channel plus what was handled is what was there plus what was dispatched *)
Lemma handoff_fifo : forall c cap evs st ch st' ch',
  hrun c cap (st, ch) evs = Some (st', ch') ->
  fold_left (recv_input c) ch' st' = fold_left (recv_input c) (ch ++ dispatched evs) st.
Proof.
  intros c cap evs. induction evs as [|e rest IH]; intros st ch st' ch' H; cbn [hrun] in H.
  - inversion H; subst. cbn. rewrite app_nil_r. reflexivity.
  - destruct e as [s|]; unfold hstep in H.
    + destruct (Nat.ltb (length ch) cap); [|discriminate].
      rewrite (IH _ _ _ _ H). cbn [dispatched]. rewrite <- app_assoc. reflexivity.
    + destruct ch as [|s t]; [discriminate|].
      rewrite (IH _ _ _ _ H). reflexivity.
Qed.

Lemma handoff_in_order : forall c cap evs st st',
  hrun c cap (st, []) evs = Some (st', []) ->
  st' = fold_left (recv_input c) (dispatched evs) st.
Proof. intros c cap evs st st' H. apply handoff_fifo in H. exact H. Qed.

Definition tcp2c : cfg := current_cfg TCP 2 0 0.
Definition w_bypass : list hev := [HDispatch (Data 0); HInput; HDispatch (Data 1); HDispatch (CloseReq 2)].

Lemma handoff_bypass_refuted :
  exists evs st, hrun_bypass tcp2c 1 (init, []) evs = Some (st, []) /\ dispatched evs = [Data 0; Data 1; CloseReq 2] /\
                 rclosed st = true /\ gap st = true /\ rqueue st = [0] /\ nextRecv st = 1 /\
                 (exists st2, hrun tcp2c 1 (init, []) (evs ++ [HInput]) = None /\
                              hrun tcp2c 2 (init, []) (evs ++ [HInput; HInput]) = Some (st2, []) /\ gap st2 = false /\ rqueue st2 = [0; 1]).
Proof.
  exists w_bypass. eexists. split; [vm_compute; reflexivity|].
  do 5 (split; [reflexivity|]).
  eexists. split; [vm_compute; reflexivity|].
  split; [vm_compute; reflexivity|]. split; reflexivity.
Qed.

(* what the closer still has to put on the stream, in the order in which it will leave *)
Definition pending (st : state) : list seg :=
  match inflight st with Some s => s :: queue st | None => queue st end.

Lemma pending_idle st : inflight st = None -> pending st = queue st.
Proof. unfold pending. intros ->. reflexivity. Qed.

Lemma pending_busy st s : inflight st = Some s -> pending st = s :: queue st.
Proof. unfold pending. intros ->. reflexivity. Qed.

Lemma pending_same st st' : inflight st' = inflight st -> queue st' = queue st -> pending st' = pending st.
Proof. unfold pending. intros -> ->. reflexivity. Qed.

Lemma pending_snoc st st' x : inflight st' = inflight st -> queue st' = queue st ++ [x] -> pending st' = pending st ++ [x].
Proof. unfold pending. intros -> ->. destruct (inflight st); reflexivity. Qed.

Lemma queue_in_pending st s : In s (queue st) -> In s (pending st).
Proof. unfold pending. intro H. destruct (inflight st); [right|]; exact H. Qed.

Definition seq_le (a b : seg) : Prop := seq_of a <= seq_of b.

Definition TINV (st : state) : Prop :=
  StronglySorted seq_le (pending st) /\
  (forall s, In s (pending st) -> lastSend st <= seq_of s /\ seq_of s < nextSend st) /\
  lastSend st <= nextSend st /\
  (cph st <> COpen -> closeSeq st < nextSend st /\ forall s, In s (pending st) -> is_data s = true -> seq_of s < closeSeq st).

Definition LINV (c : cfg) (st : state) : Prop :=
  c_lockdrain c = true -> olock st = false -> inflight st = None.

Lemma no_inflight_true : forall st, no_inflight st = true -> inflight st = None.
Proof. intros st. unfold no_inflight. destruct (inflight st); [discriminate | reflexivity]. Qed.

Lemma force_disabled_under_olock : forall c st, olock st = true -> step c st CForce = None.
Proof. intros c st H. unfold step. destruct (cph st); try reflexivity. rewrite H. reflexivity. Qed.

Definition is_drain (ch : choice) : bool :=
  match ch with OStart | OSeg | ODeq | OOut => true | _ => false end.

(* the three labels of the closer that write [false] into olock are enabled only when it is false already *)
Lemma lock_frame c st ch st' : is_drain ch = false -> step c st ch = Some st' ->
  inflight st' = inflight st /\ olock st' = olock st.
Proof.
  intros D H. destruct (is_peer ch) eqn:P.
  { apply (peer_step_sender _ _ _ P) in H. injection H; intros. split; assumption. }
  destruct ch; try discriminate P; try discriminate D; unfold step in H; step_cases H; split; try reflexivity.
  all: (* CWrite, CClose, CForce: the guard is negb (olock st) && _ *)
    symmetry; apply negb_true_iff; eapply proj1, andb_prop; eassumption.
Qed.

Lemma linv_step : forall c st ch st', LINV c st -> step c st ch = Some st' -> LINV c st'.
Proof.
  intros c st ch st' L H Hl. specialize (L Hl). destruct (is_drain ch) eqn:D.
  2: { destruct (lock_frame c st ch st' D H) as [-> ->]. exact L. }
  destruct ch; try discriminate D; unfold step in H.
  - (* OStart *) step_cases H. discriminate.
  - (* OSeg *)
    step_cases H; intros _; apply no_inflight_true; eapply proj2, andb_prop; eassumption.
  - (* ODeq *) step_cases H; cbn.
    + intros _. reflexivity.
    + (* a segment goes in flight; by the guard oLock is held exactly if the discipline is the code's *)
      intro Ho. assert (G : Bool.eqb (olock st) (c_lockdrain c) = true) by (eapply proj2, andb_prop; eassumption).
      rewrite Ho, Hl in G. discriminate G.
  - (* OOut *) step_cases H. intros _. reflexivity.
Qed.

Theorem tcp_close_fallback_never_overtakes_inflight : forall c sched st,
  is_tcp c = true -> c_lockdrain c = true -> run c init sched = Some st -> inflight st <> None ->
  olock st = true /\ step c st CForce = None.
Proof.
  intros c sched st _ Hl H Hin.
  assert (L : LINV c st).
  { apply (run_invariant c (LINV c) sched) with (st := init); [|intros _ _; reflexivity|exact H].
    intros st0 ch st1 _. apply linv_step. }
  assert (Ho : olock st = true) by (destruct (olock st) eqn:E; [reflexivity | destruct (Hin (L Hl E))]).
  split; [exact Ho | apply force_disabled_under_olock; exact Ho].
Qed.

Lemma ssorted_snoc : forall l x, StronglySorted seq_le l -> (forall s, In s l -> seq_le s x) -> StronglySorted seq_le (l ++ [x]).
Proof.
  induction l as [|a l IH]; intros x Hs Hx; cbn.
  - constructor; constructor.
  - inversion Hs as [|? ? Hs' Hf]; subst. constructor.
    + apply IH; [assumption|]. intros s Hin. apply Hx. right; assumption.
    + apply Forall_app. split; [assumption|]. constructor; [|constructor]. apply Hx. left; reflexivity.
Qed.

Lemma tinv_empty : forall st, pending st = [] -> lastSend st <= nextSend st -> (cph st <> COpen -> closeSeq st < nextSend st) -> TINV st.
Proof.
  intros st Hp C A. unfold TINV. rewrite Hp. split; [constructor|]. split; [intros s []|]. split; [exact C|].
  intro X. split; [exact (A X) | intros s []].
Qed.

Lemma tinv_init : TINV init.
Proof. apply tinv_empty; [reflexivity | reflexivity | intros X; destruct X; reflexivity]. Qed.

Lemma tinv_same : forall st st', TINV st ->
  pending st' = pending st -> lastSend st' = lastSend st -> nextSend st' = nextSend st -> closeSeq st' = closeSeq st ->
  (cph st' <> COpen -> cph st <> COpen) -> TINV st'.
Proof.
  intros st st' (S & B & C & A) Hp Hl Hn Hc Hph. unfold TINV. rewrite Hp, Hl, Hn, Hc.
  split; [exact S|]. split; [exact B|]. split; [exact C|]. intro X. exact (A (Hph X)).
Qed.

Lemma tinv_pop : forall st st' s rest, TINV st -> pending st = s :: rest -> pending st' = rest ->
  lastSend st' = seq_of s -> nextSend st' = nextSend st -> closeSeq st' = closeSeq st -> cph st' = cph st -> TINV st'.
Proof.
  intros st st' s rest (S & B & C & A) Hp Hp' Hl Hn Hc Hph. unfold TINV. rewrite Hp', Hl, Hn, Hc, Hph. rewrite Hp in *.
  inversion S as [|? ? S' F]; subst. rewrite Forall_forall in F.
  split; [exact S'|]. split; [|split].
  - intros x Hin. split; [exact (F x Hin) | apply B; right; exact Hin].
  - destruct (B s (or_introl eq_refl)). lia.
  - intro X. destruct (A X) as [A1 A2]. split; [exact A1|]. intros x Hin. apply A2. right; exact Hin.
Qed.

Lemma tinv_push : forall st st' x, TINV st -> pending st' = pending st ++ [x] -> seq_of x = nextSend st ->
  lastSend st' = lastSend st -> nextSend st' = nextSend st + 1 ->
  (cph st' <> COpen -> closeSeq st' = nextSend st /\ is_data x = false) -> TINV st'.
Proof.
  intros st st' x (S & B & C & A) Hp Hx Hl Hn HA. unfold TINV. rewrite Hp, Hl, Hn.
  split; [|split; [|split]].
  - apply ssorted_snoc; [assumption|]. intros s Hin. unfold seq_le. destruct (B s Hin). lia.
  - intros s Hin. apply in_app_or in Hin. destruct Hin as [Hin | [<- | []]]; [destruct (B s Hin) |]; lia.
  - lia.
  - (* closing: x is the close request, and it is numbered above everything pending *)
    intro X. destruct (HA X) as [-> Hd]. split; [lia|]. intros s Hin Hs. apply in_app_or in Hin.
    destruct Hin as [Hin | [<- | []]]; [apply B; exact Hin | congruence].
Qed.

Lemma tinv_finish : forall st, TINV st -> cph st <> COpen -> TINV (finish st).
Proof.
  intros st (S & B & C & A) Hph. destruct (A Hph) as [A1 A2]. destruct (inflight st) as [s|] eqn:E.
  - assert (Hin : In s (pending st)) by (rewrite (pending_busy st s E); left; reflexivity).
    unfold TINV. rewrite (pending_busy (finish st) s E). cbn.
    split; [repeat constructor|]. split; [intros x [<- | []]; exact (B s Hin)|]. split; [exact C|].
    intros _. split; [exact A1|]. intros x [<- | []]. exact (A2 s Hin).
  - apply tinv_empty; [exact (pending_idle (finish st) E) | exact C | intros _; exact A1].
Qed.

Lemma tinv_step : forall c st ch st', is_tcp c = true -> TINV st -> step c st ch = Some st' -> TINV st'.
Proof.
  intros c st ch st' Htcp T H. destruct (is_peer ch) eqn:P.
  { apply (peer_step_sender _ _ _ P) in H. injection H; intros.
    apply (tinv_same st _ T); [apply pending_same|..]; congruence. }
  destruct ch; try discriminate P; unfold step in H; rewrite ?Htcp in H; cbn [negb andb] in H; try discriminate H.
  - (* CWrite *) step_cases H.
    apply (tinv_push st _ (Data (nextSend st)) T); try reflexivity; [apply pending_snoc; reflexivity|].
    cbn. intro X. destruct X. reflexivity.
  - (* CClose *) step_cases H.
    apply (tinv_push st _ (CloseReq (nextSend st)) T); try reflexivity; [apply pending_snoc; reflexivity|].
    cbn. intros _. split; reflexivity.
  - (* CTick *) step_cases H.
    + apply tinv_finish; [assumption | congruence].
    + apply (tinv_same st _ T); try reflexivity. cbn. congruence.
    + apply (tinv_same st _ T); try reflexivity. cbn. congruence.
  - (* CForce: nothing is in flight, nothing is left *)
    unfold is_tcp in Htcp. destruct (c_tr c); [|discriminate Htcp].
    destruct T as (_ & _ & _ & A). step_cases H.
    destruct A as [A _]; [congruence|].
    apply tinv_empty; [apply (pending_idle (finish _)) | cbn; lia | intros _; exact A].
    apply no_inflight_true; eapply proj2, andb_prop; eassumption.
  - (* OStart *) destruct (queue st) as [|s q] eqn:Eq; step_cases H.
    apply (tinv_same st _ T); try reflexivity; [|auto]. apply pending_same; [reflexivity | symmetry; exact Eq].
  - (* OSeg *) destruct (olock st && no_inflight st) eqn:G; [|discriminate H]. apply andb_prop in G as [_ G]. apply no_inflight_true in G.
    destruct (queue st) as [|s q] eqn:Eq; step_cases H.
    + apply (tinv_same st _ T); try reflexivity; [|auto]. apply pending_same; [reflexivity | symmetry; exact Eq].
    + apply (tinv_pop st _ s q T); try reflexivity; [rewrite (pending_idle st G); exact Eq | apply pending_idle; exact G].
  - (* ODeq: the head of the queue becomes the segment in flight *)
    destruct (no_inflight st && _) eqn:G; [|discriminate H]. apply andb_prop in G as [G _]. apply no_inflight_true in G.
    destruct (queue st) as [|s q] eqn:Eq; step_cases H; (apply (tinv_same st _ T); try reflexivity; [|auto]);
      rewrite (pending_idle st G), Eq; reflexivity.
  - (* OOut *) destruct (inflight st) as [s|] eqn:E; [|discriminate H]. step_cases H.
    apply (tinv_pop st _ s (queue st) T); try reflexivity. exact (pending_busy st s E).
  - (* DAck *) step_cases H. apply (tinv_same st _ T); try reflexivity. auto.
Qed.

Theorem tcp_only_fallback_discards : forall c sched st ch st',
  is_tcp c = true -> run c init sched = Some st -> step c st ch = Some st' -> ch <> CForce -> discarded st' = discarded st.
Proof.
  intros c sched st ch st' Htcp Hr H Hch. destruct (is_peer ch) eqn:P.
  { apply (peer_step_sender _ _ _ P) in H. injection H; intros. assumption. }
  destruct ch; try discriminate P; unfold step in H; try (step_cases H; reflexivity).
  2: (* CForce *) destruct Hch; reflexivity.
  (* CTick: only the regular end of the wait calls DeleteAll *)
  destruct (cph st) eqn:Ep; try discriminate H. destruct (closeSeq st <=? lastSend st) eqn:E; [|step_cases H; reflexivity].
  injection H as <-. cbn. apply N.leb_le in E.
  assert (T : TINV st).
  { apply (run_invariant c TINV sched) with (st := init); [|apply tinv_init|exact Hr].
    intros st0 ch0 st1 _. apply tinv_step. exact Htcp. }
  destruct T as (_ & B & _ & A). destruct A as [_ A]; [congruence|].
  destruct (existsb is_data (queue st)) eqn:X; [exfalso | apply orb_false_r].
  apply existsb_exists in X. destruct X as (s & Hin & Hd). apply queue_in_pending in Hin.
  specialize (A s Hin Hd). destruct (B s Hin) as [B1 _]. lia.
Qed.

Definition tcp3_unlocked : cfg := mkCfg TCP 3 close_wait_iterations true false 0 0 segment_tree_capacity false.

Definition w_tcp_unlocked : list choice :=
  [CWrite; CWrite; CWrite; CClose; ODeq] ++ repeat_choice CTick (N.to_nat close_wait_iterations) ++
  [OOut; CForce; DTcp; DTcp; RTest; RTest; RWaitClosed].

Lemma tcp_unlocked_output_refuted :
  exists sched st, run tcp3_unlocked init sched = Some st /\ clean_truncation tcp3_unlocked st /\ discarded st = true
                   /\ tcpnet st = [] /\ read_so_far st = [0] /\ ticks st = close_wait_iterations.
Proof.
  exists w_tcp_unlocked. eexists. split.
  { eapply run_through_wait; [vm_compute; reflexivity | reflexivity .. | discriminate | vm_compute; reflexivity]. }
  repeat split. exists [1; 2]. split; [discriminate | reflexivity].
Qed.

Lemma q_step_inv cap q e : q < cap -> q_step true cap q e < cap.
Proof.
  intros Hq. destruct e as [n|k]; cbn [q_step].
  - unfold q_admits. destruct (1 <=? n) eqn:E1; cbn [andb]; [|exact Hq].
    destruct (n <? cap - q) eqn:E2; [|exact Hq].
    apply N.ltb_lt in E2. lia.
  - lia.
Qed.

Lemma q_fold_inv cap evs : forall q, q < cap -> fold_left (q_step true cap) evs q < cap.
Proof.
  induction evs as [|e evs IH]; intros q Hq; cbn [fold_left]; [exact Hq|].
  apply IH. apply q_step_inv. exact Hq.
Qed.

Lemma close_request_always_queued (evs : list qev) :
  q_close_queued segment_tree_capacity (q_run true segment_tree_capacity evs) = true.
Proof.
  unfold q_close_queued, q_run. apply N.ltb_lt. apply q_fold_inv. reflexivity.
Qed.

(* one history under both admission tests: the strict one makes the second Write wait for the drain, the other lets it
   fill the queue (4071 + 25 = 4096) *)
Example q_run_example :
  q_run true segment_tree_capacity [QWrite 4071; QWrite 25; QDrain 30; QWrite 25] = 4066 /\
  q_run false segment_tree_capacity [QWrite 4071; QWrite 25; QDrain 30; QWrite 25] = 4091.
Proof. vm_compute. split; reflexivity. Qed.
