(* C20: mieru's own configuration logic as modelled in model/Config.v (merge, hashing on store, link guards, port
   texts, validators, link export and import, histories on the server file); library code enters as inputs.
   The predicates the C20 statements are written in ([takes], [names_sorted], [no_plaintext], ...) are defined here. *)
From Coq Require Import List NArith ZArith Bool Lia.
From M Require Import gen.Consts model.Config.
Import ListNotations.

(* r, p, o: a field of the result, of the patch, of the old configuration *)
Definition takes {A : Type} (r p o : option A) : Prop :=
  (forall v, p = Some v -> r = Some v) /\ (p = None -> r = o).
(* scalars read through their getter: the result is always set *)
Definition takes_z (r p o : option Z) : Prop :=
  (forall v, p = Some v -> r = Some v) /\ (p = None -> r = Some (getz o)).
Definition takes_b (r p o : option bytes) : Prop :=
  (forall v, p = Some v -> r = Some v) /\ (p = None -> r = Some (getb o)).

Fixpoint names_sorted {V : Type} (key : V -> bytes) (l : list V) : Prop :=
  match l with
  | [] => True
  | x :: t => Forall (fun y => bytes_cmp (key x) (key y) = Lt) t /\ names_sorted key t
  end.

Definition no_plaintext (u : user) : Prop := u_pw u = None \/ u_pw u = Some [].

Lemma bytes_cmp_eq : forall a b, bytes_cmp a b = Eq <-> a = b.
Proof.
  induction a as [|x a IH]; destruct b as [|y b]; simpl; split; intro Hc; try congruence.
  - destruct (N.compare x y) eqn:E; try discriminate.
    apply N.compare_eq in E. subst. f_equal. apply IH; assumption.
  - inversion Hc; subst. rewrite N.compare_refl. apply IH; reflexivity.
Qed.

Lemma bytes_cmp_refl : forall a, bytes_cmp a a = Eq.
Proof. intro a. apply bytes_cmp_eq. reflexivity. Qed.

Lemma bytes_eqb_eq : forall a b, bytes_eqb a b = true <-> a = b.
Proof.
  intros a b. rewrite <- bytes_cmp_eq. unfold bytes_eqb.
  destruct (bytes_cmp a b); split; congruence.
Qed.

Lemma bytes_eqb_refl : forall a, bytes_eqb a a = true.
Proof. intro a. apply bytes_eqb_eq. reflexivity. Qed.

Lemma bytes_cmp_antisym : forall a b, bytes_cmp b a = CompOpp (bytes_cmp a b).
Proof.
  induction a as [|x a IH]; destruct b as [|y b]; simpl; auto.
  rewrite (N.compare_antisym x y). destruct (N.compare x y); simpl; auto.
Qed.

Lemma bytes_cmp_lt_trans : forall a b c, bytes_cmp a b = Lt -> bytes_cmp b c = Lt -> bytes_cmp a c = Lt.
Proof.
  induction a as [|x a IH]; destruct b as [|y b]; destruct c as [|z c]; simpl; try discriminate; auto.
  intros H1 H2.
  destruct (N.compare x y) eqn:E1; destruct (N.compare y z) eqn:E2; try discriminate.
  - apply N.compare_eq in E1. apply N.compare_eq in E2. subst. rewrite N.compare_refl. eauto.
  - apply N.compare_eq in E1. subst. rewrite E2. reflexivity.
  - apply N.compare_eq in E2. subst. rewrite E1. reflexivity.
  - apply N.compare_lt_iff in E1. apply N.compare_lt_iff in E2.
    rewrite (proj2 (N.compare_lt_iff x z) (N.lt_trans _ _ _ E1 E2)). reflexivity.
Qed.

Lemma bytes_cmp_lt_neq : forall a b, bytes_cmp a b = Lt -> bytes_eqb a b = false.
Proof. intros a b Hc. unfold bytes_eqb. rewrite Hc. reflexivity. Qed.

Lemma bytes_cmp_gt_lt : forall a b, bytes_cmp a b = Gt -> bytes_cmp b a = Lt.
Proof. intros a b Hc. rewrite bytes_cmp_antisym, Hc. reflexivity. Qed.

Lemma bytes_eqb_sym : forall a b, bytes_eqb a b = bytes_eqb b a.
Proof.
  intros a b. unfold bytes_eqb. rewrite (bytes_cmp_antisym a b).
  destruct (bytes_cmp a b); reflexivity.
Qed.

(* Go fills a map and emits it in the order of the sorted names; the model inserts into an association list.
   The lists that occur are strictly increasing in the key ([names_sorted fst]) and every key is the name of its
   entry: [assoc_wf].  Two increasing lists with the same [lookup] are equal: that is how idempotence is shown. *)
Section AssocProofs.
  Variable V : Type.
  Variable key : V -> bytes.

  Definition assoc_wf (l : list (bytes * V)) : Prop :=
    names_sorted fst l /\ Forall (fun e => fst e = key (snd e)) l.

  Lemma lookup_ins : forall k (v : V) l k',
    lookup k' (ins k v l) = if bytes_eqb k' k then Some v else lookup k' l.
  Proof.
    intros k v l k'. induction l as [|[k0 v0] t IH]; simpl.
    - reflexivity.
    - destruct (bytes_cmp k k0) eqn:E; simpl.
      + apply bytes_cmp_eq in E. subst k0. destruct (bytes_eqb k' k); reflexivity.
      + reflexivity.
      + rewrite IH. destruct (bytes_eqb k' k0) eqn:E0; [|reflexivity].
        apply bytes_eqb_eq in E0. subst k0.
        destruct (bytes_eqb k' k) eqn:E1; [|reflexivity].
        apply bytes_eqb_eq in E1. subst k'. rewrite bytes_cmp_refl in E. discriminate.
  Qed.

  (* [ins] adds its entry and drops at most one *)
  Lemma Forall_ins : forall (P : bytes * V -> Prop) k v l, P (k, v) -> Forall P l -> Forall P (ins k v l).
  Proof.
    intros P k v l Hk Hl. induction Hl as [|[k1 v1] t H1 Ht IH]; simpl.
    - constructor; [exact Hk | constructor].
    - destruct (bytes_cmp k k1); constructor; auto.
  Qed.

  Lemma forall_lt_weaken : forall k k0 (l : list (bytes * V)),
    bytes_cmp k k0 = Lt -> Forall (fun e => bytes_cmp k0 (fst e) = Lt) l ->
    Forall (fun e => bytes_cmp k (fst e) = Lt) l.
  Proof.
    intros k k0 l Hk. apply Forall_impl. intro e. apply bytes_cmp_lt_trans. exact Hk.
  Qed.

  Lemma ins_sorted : forall k v (l : list (bytes * V)), names_sorted fst l -> names_sorted fst (ins k v l).
  Proof.
    intros k v l. induction l as [|[k0 v0] t IH]; simpl; intro Hs.
    - split; [constructor | exact I].
    - destruct Hs as [Hall Hs].
      destruct (bytes_cmp k k0) eqn:E; simpl.
      + apply bytes_cmp_eq in E. subst k0. split; assumption.
      + split; [|split; assumption].
        constructor; [exact E | eapply forall_lt_weaken; eassumption].
      + split; [|apply IH; exact Hs].
        apply Forall_ins; [apply bytes_cmp_gt_lt; exact E | exact Hall].
  Qed.

  Lemma ins_all_wf : forall xs m, assoc_wf m -> assoc_wf (ins_all key xs m).
  Proof.
    unfold ins_all. induction xs as [|x t IH]; simpl; intros m [Hs Hk]; [split; assumption|].
    apply IH. split; [apply ins_sorted; exact Hs | apply Forall_ins; [reflexivity | exact Hk]].
  Qed.

  Lemma lookup_ins_all : forall xs m k,
    lookup k (ins_all key xs m) =
    match find_last key k xs with Some y => Some y | None => lookup k m end.
  Proof.
    unfold ins_all. induction xs as [|x t IH]; simpl; intros m k; [reflexivity|].
    rewrite IH. destruct (find_last key k t); [reflexivity|].
    rewrite lookup_ins. destruct (bytes_eqb k (key x)); reflexivity.
  Qed.

  Lemma lookup_none_lt : forall k (l : list (bytes * V)),
    Forall (fun e => bytes_cmp k (fst e) = Lt) l -> lookup k l = None.
  Proof.
    intros k l Hl. induction Hl as [|[k0 v0] t He Ht IH]; simpl; [reflexivity|].
    simpl in He. rewrite (bytes_cmp_lt_neq _ _ He). exact IH.
  Qed.

  Lemma lookup_below : forall k k0 v0 (t : list (bytes * V)),
    bytes_cmp k k0 = Lt -> Forall (fun e => bytes_cmp k0 (fst e) = Lt) t -> lookup k ((k0, v0) :: t) = None.
  Proof.
    intros k k0 v0 t Hk Ht. simpl. rewrite (bytes_cmp_lt_neq _ _ Hk).
    apply lookup_none_lt. eapply forall_lt_weaken; eassumption.
  Qed.

  Lemma sorted_ext : forall l1 l2 : list (bytes * V), names_sorted fst l1 -> names_sorted fst l2 ->
    (forall k, lookup k l1 = lookup k l2) -> l1 = l2.
  Proof.
    induction l1 as [|[k1 v1] t1 IH]; destruct l2 as [|[k2 v2] t2]; intros S1 S2 Hx.
    - reflexivity.
    - specialize (Hx k2). simpl in Hx. rewrite bytes_eqb_refl in Hx. discriminate.
    - specialize (Hx k1). simpl in Hx. rewrite bytes_eqb_refl in Hx. discriminate.
    - destruct S1 as [A1 S1]. destruct S2 as [A2 S2]. simpl in A1, A2.
      destruct (bytes_cmp k1 k2) eqn:E.
      + apply bytes_cmp_eq in E. subst k2.
        pose proof (Hx k1) as Hk. simpl in Hk. rewrite bytes_eqb_refl in Hk. inversion Hk; subst v2.
        f_equal. apply IH; try assumption.
        intro k. destruct (bytes_eqb k k1) eqn:Ek.
        * apply bytes_eqb_eq in Ek. subst k.
          rewrite (lookup_none_lt _ _ A1), (lookup_none_lt _ _ A2). reflexivity.
        * specialize (Hx k). simpl in Hx. rewrite Ek in Hx. exact Hx.
      + (* k1 is found on the left and lies below every key on the right *)
        specialize (Hx k1). rewrite (lookup_below _ _ _ _ E A2) in Hx.
        simpl in Hx. rewrite bytes_eqb_refl in Hx. discriminate.
      + apply bytes_cmp_gt_lt in E. specialize (Hx k2). rewrite (lookup_below _ _ _ _ E A1) in Hx.
        simpl in Hx. rewrite bytes_eqb_refl in Hx. discriminate.
  Qed.

  Lemma find_last_map_snd : forall l k, assoc_wf l -> find_last key k (map snd l) = lookup k l.
  Proof.
    induction l as [|[k0 v0] t IH]; simpl; intros k Hw; [reflexivity|]. destruct Hw as [[Hall Hs] Hk].
    inversion Hk as [|? ? H1 H2]; subst. simpl in H1, Hall. subst k0.
    rewrite IH by (split; assumption).
    destruct (bytes_eqb k (key v0)) eqn:E.
    - apply bytes_eqb_eq in E. subst k. rewrite (lookup_none_lt _ _ Hall). reflexivity.
    - destruct (lookup k t); reflexivity.
  Qed.

  Lemma wf_names_sorted : forall l, assoc_wf l -> names_sorted key (map snd l).
  Proof.
    induction l as [|[k0 v0] t IH]; simpl; intro Hw; [exact I|]. destruct Hw as [[Hall Hs] Hk].
    inversion Hk as [|? ? H1 H2]; subst. simpl in H1, Hall. subst k0.
    split; [|apply IH; split; assumption].
    apply Forall_map. eapply Forall_impl; [|apply Forall_and; [exact Hall | exact H2]].
    intros e [He1 He2]. rewrite <- He2. exact He1.
  Qed.

  Definition merged_assoc (dst src : list V) := ins_all key src (ins_all key dst []).

  Lemma merged_assoc_wf : forall dst src, assoc_wf (merged_assoc dst src).
  Proof. intros. apply ins_all_wf, ins_all_wf. split; [exact I | constructor]. Qed.

  Lemma merged_assoc_lookup : forall dst src k,
    lookup k (merged_assoc dst src) =
    match find_last key k src with Some y => Some y | None => find_last key k dst end.
  Proof.
    intros. unfold merged_assoc. rewrite !lookup_ins_all. simpl.
    destruct (find_last key k dst); reflexivity.
  Qed.

  (* so names the patch does not mention keep their entry and no name disappears *)
  Theorem merge_by_name_spec : forall dst src k,
    find_last key k (merge_by_name key dst src) =
    match find_last key k src with Some y => Some y | None => find_last key k dst end.
  Proof.
    intros. unfold merge_by_name. fold (merged_assoc dst src).
    rewrite find_last_map_snd by apply merged_assoc_wf. apply merged_assoc_lookup.
  Qed.

  Theorem merge_by_name_sorted : forall dst src, names_sorted key (merge_by_name key dst src).
  Proof. intros. apply wf_names_sorted, merged_assoc_wf. Qed.

  Theorem merge_by_name_idempotent : forall dst src,
    merge_by_name key (merge_by_name key dst src) src = merge_by_name key dst src.
  Proof.
    intros. unfold merge_by_name at 1 3. fold (merged_assoc dst src).
    fold (merged_assoc (merge_by_name key dst src) src).
    f_equal. apply sorted_ext; try apply merged_assoc_wf.
    intro k. rewrite !merged_assoc_lookup, merge_by_name_spec.
    destruct (find_last key k src); reflexivity.
  Qed.

  Lemma find_last_in : forall k xs y, find_last key k xs = Some y -> In y xs /\ key y = k.
  Proof.
    induction xs as [|x t IH]; simpl; intros y Hf; [discriminate|].
    destruct (find_last key k t) eqn:E.
    - inversion Hf; subst. destruct (IH y eq_refl) as [Hi Hk]. split; [right; exact Hi | exact Hk].
    - destruct (bytes_eqb k (key x)) eqn:E1; [|discriminate].
      inversion Hf; subst. apply bytes_eqb_eq in E1. split; [left; reflexivity | symmetry; exact E1].
  Qed.

  Lemma find_last_of_in : forall xs x, In x xs -> exists y, find_last key (key x) xs = Some y.
  Proof.
    induction xs as [|a t IH]; simpl; intros x Hin; [contradiction|].
    destruct Hin as [Ha|Ht].
    - subst a. destruct (find_last key (key x) t); [eexists; reflexivity|].
      rewrite bytes_eqb_refl. eexists; reflexivity.
    - destruct (IH x Ht) as [y Hy]. rewrite Hy. eexists; reflexivity.
  Qed.

  Lemma names_sorted_find : forall l x, names_sorted key l -> In x l -> find_last key (key x) l = Some x.
  Proof.
    induction l as [|y t IH]; simpl; intros x Hs Hi; [contradiction|].
    destruct Hs as [Hall Hs]. destruct Hi as [Hi|Hi].
    - subst y. destruct (find_last key (key x) t) eqn:E.
      + exfalso. apply find_last_in in E. destruct E as [Hin Hk].
        rewrite Forall_forall in Hall. specialize (Hall _ Hin). rewrite Hk, bytes_cmp_refl in Hall. discriminate.
      + rewrite bytes_eqb_refl. reflexivity.
    - rewrite (IH x Hs Hi). reflexivity.
  Qed.

  Theorem merge_by_name_in : forall dst src x,
    In x (merge_by_name key dst src) -> In x src \/ In x dst.
  Proof.
    intros dst src x Hi.
    pose proof (names_sorted_find _ _ (merge_by_name_sorted dst src) Hi) as Hf.
    rewrite merge_by_name_spec in Hf.
    destruct (find_last key (key x) src) eqn:E.
    - inversion Hf; subst. left. apply (find_last_in _ _ _ E).
    - right. apply (find_last_in _ _ _ Hf).
  Qed.

  Lemma merge_by_name_Forall : forall (P : V -> Prop) dst src,
    Forall P dst -> Forall P src -> Forall P (merge_by_name key dst src).
  Proof.
    intros P dst src Hd Hs. rewrite Forall_forall in *. intros x Hx.
    destruct (merge_by_name_in _ _ _ Hx); auto.
  Qed.

  Lemma merge_by_name_keeps_name : forall dst src k,
    existsb (fun x => bytes_eqb (key x) k) dst = true ->
    existsb (fun x => bytes_eqb (key x) k) (merge_by_name key dst src) = true.
  Proof.
    intros dst src k Hd. apply existsb_exists in Hd. destruct Hd as [x [Hx Hk]]. apply bytes_eqb_eq in Hk.
    destruct (find_last_of_in _ _ Hx) as [y Hy].
    assert (Hz : exists z, find_last key (key x) (merge_by_name key dst src) = Some z).
    { rewrite merge_by_name_spec. destruct (find_last key (key x) src); eauto. }
    destruct Hz as [z Hz]. apply find_last_in in Hz. destruct Hz as [Hzin Hzk].
    apply existsb_exists. exists z. split; [exact Hzin|]. apply bytes_eqb_eq. congruence.
  Qed.
End AssocProofs.

Arguments merge_by_name_spec {V}. Arguments merge_by_name_sorted {V}. Arguments merge_by_name_idempotent {V}.
Arguments merge_by_name_in {V}. Arguments merge_by_name_Forall {V}. Arguments merge_by_name_keeps_name {V}.

(* the three shapes a field has in mergeServerConfig / mergeClientConfigByProfile: an optional value, and a scalar
   read through its getter (a number, a string), which the merge always sets *)
Lemma orelse_takes : forall (A : Type) (p o : option A), takes (orelse p o) p o.
Proof. intros A p o. split; intros; subst; reflexivity. Qed.

Lemma orelse_takes_z : forall p o, takes_z (Some (getz (orelse p o))) p o.
Proof. intros p o. split; intros; subst; reflexivity. Qed.

Lemma orelse_takes_b : forall p o, takes_b (Some (getb (orelse p o))) p o.
Proof. intros p o. split; intros; subst; reflexivity. Qed.

Lemma orelse_idem : forall (A : Type) (p o : option A), orelse p (orelse p o) = orelse p o.
Proof. intros A [x|] o; reflexivity. Qed.

Lemma orelse_idem_get : forall (A : Type) (get : option A -> A) (p o : option A),
  (forall v, get (Some v) = v) ->
  Some (get (orelse p (Some (get (orelse p o))))) = Some (get (orelse p o)).
Proof. intros A get [x|] o Hg; simpl; [|rewrite Hg]; reflexivity. Qed.

Lemma orelse_cases : forall (A : Type) (P : option A -> Prop) (p o : option A), P p -> P o -> P (orelse p o).
Proof. intros A P [x|] o Hp Ho; simpl; assumption. Qed.

Theorem merge_server_only_set : forall old patch : server_cfg,
  let r := merge_server old patch in
  takes (s_ports r) (s_ports patch) (s_ports old) /\
  takes (s_adv r) (s_adv patch) (s_adv old) /\
  takes_z (s_log r) (s_log patch) (s_log old) /\
  takes_z (s_mtu r) (s_mtu patch) (s_mtu old) /\
  takes (s_egress r) (s_egress patch) (s_egress old) /\
  takes (s_dns r) (s_dns patch) (s_dns old) /\
  takes (s_tp r) (s_tp patch) (s_tp old) /\
  (forall name, find_last uname name (s_users r) =
                match find_last uname name (s_users patch) with
                | Some u => Some u
                | None => find_last uname name (s_users old)
                end) /\
  names_sorted uname (s_users r) /\
  (forall u, In u (s_users r) -> In u (s_users patch) \/ In u (s_users old)).
Proof.
  intros old patch r. unfold r, merge_server; simpl.
  repeat match goal with |- _ /\ _ => split end;
    auto using orelse_takes, orelse_takes_z, merge_by_name_spec, merge_by_name_sorted.
  exact (merge_by_name_in uname _ _).
Qed.

Theorem merge_server_idempotent : forall old patch,
  merge_server (merge_server old patch) patch = merge_server old patch.
Proof.
  intros old patch. unfold merge_server; simpl.
  rewrite merge_by_name_idempotent, !orelse_idem, !(orelse_idem_get _ getz) by reflexivity. reflexivity.
Qed.

Theorem merge_client_only_set : forall old patch : client_cfg,
  let r := merge_client old patch in
  takes_b (c_active r) (c_active patch) (c_active old) /\
  takes (c_rpc r) (c_rpc patch) (c_rpc old) /\
  takes_z (c_socks5 r) (c_socks5 patch) (c_socks5 old) /\
  takes (c_adv r) (c_adv patch) (c_adv old) /\
  takes_z (c_log r) (c_log patch) (c_log old) /\
  takes (c_s5lan r) (c_s5lan patch) (c_s5lan old) /\
  takes (c_http r) (c_http patch) (c_http old) /\
  takes (c_httplan r) (c_httplan patch) (c_httplan old) /\
  takes (c_auth r) (c_auth patch) (c_auth old) /\
  (forall name, find_last pname name (c_profiles r) =
                match find_last pname name (c_profiles patch) with
                | Some p => Some p
                | None => find_last pname name (c_profiles old)
                end) /\
  names_sorted pname (c_profiles r) /\
  (forall p, In p (c_profiles r) -> In p (c_profiles patch) \/ In p (c_profiles old)).
Proof.
  intros old patch r. unfold r, merge_client; simpl.
  repeat match goal with |- _ /\ _ => split end;
    auto using orelse_takes, orelse_takes_z, orelse_takes_b, merge_by_name_spec, merge_by_name_sorted.
  exact (merge_by_name_in pname _ _).
Qed.

Theorem merge_client_idempotent : forall old patch,
  merge_client (merge_client old patch) patch = merge_client old patch.
Proof.
  intros old patch. unfold merge_client; simpl.
  rewrite merge_by_name_idempotent, !orelse_idem, !(orelse_idem_get _ getz), (orelse_idem_get _ getb) by reflexivity.
  reflexivity.
Qed.

(* non-vacuity: a patch that sets the logging level, replaces bob and adds carol; ports and MTU stay *)
Definition ex_user (n pw : bytes) : user := mkUser (Some n) (Some pw) None [] [].
Definition ex_old : server_cfg :=
  mkServer (Some [mkPB (Some 2012%Z) (Some 2%Z) None]) [ex_user [98]%N [1]%N; ex_user [97]%N [2]%N] None None (Some 1400%Z) None None None.
Definition ex_patch : server_cfg :=
  mkServer None [ex_user [99]%N [3]%N; ex_user [98]%N [4]%N] None (Some 3%Z) None None None None.
Example ex_merge_server :
  merge_server ex_old ex_patch =
  mkServer (Some [mkPB (Some 2012%Z) (Some 2%Z) None]) [ex_user [97]%N [2]%N; ex_user [98]%N [4]%N; ex_user [99]%N [3]%N]
           None (Some 3%Z) (Some 1400%Z) None None None.
Proof. vm_compute. reflexivity. Qed.

Lemma Forall2_map_self : forall (A B : Type) (R : A -> B -> Prop) (f : A -> B) l,
  (forall x, R x (f x)) -> Forall2 R l (map f l).
Proof. intros A B R f l Hf. induction l; simpl; constructor; auto. Qed.

Section HashProofs.
  Variable H : bytes -> bytes.

  Lemma hash_user_no_plaintext : forall u, no_plaintext (hash_user H false u).
  Proof.
    intro u. unfold no_plaintext, hash_user.
    destruct (u_pw u) as [[|b pw]|] eqn:E; simpl; auto.
  Qed.

  Definition hashed_from (keep : bool) (u u' : user) : Prop :=
    u_name u' = u_name u /\ u_rest u' = u_rest u /\ u_quotas u' = u_quotas u /\
    match u_pw u with
    | None => u' = u
    | Some [] => u' = u
    | Some pw => u_hpw u' = Some (H (pw ++ 0%N :: uname u)) /\
                 u_pw u' = (if keep then Some pw else Some [])
    end.

  Lemma hash_user_spec : forall keep u, hashed_from keep u (hash_user H keep u).
  Proof.
    intros keep u. unfold hashed_from, hash_user.
    destruct (u_pw u) as [[|b pw]|] eqn:E; simpl; auto.
  Qed.

  Theorem hash_users_no_plaintext : forall us,
    Forall no_plaintext (hash_users H false us) /\
    Forall2 (hashed_from false) us (hash_users H false us).
  Proof.
    intro us. unfold hash_users. split.
    - apply Forall_map, Forall_forall. intros u _. apply hash_user_no_plaintext.
    - apply Forall2_map_self, hash_user_spec.
  Qed.

  (* every write of the server file goes through [store_server] *)
  Lemma store_server_clean : forall c, Forall no_plaintext (s_users (store_server H c)).
  Proof. intro c. apply hash_users_no_plaintext. Qed.

  (* what ApplyJSONServerConfig writes; the merge plays no part, the same holds of [store_server H c] for every c *)
  Theorem apply_then_store_no_plaintext : forall old patch,
    Forall no_plaintext (s_users (store_server H (merge_server old patch))) /\
    (let c := merge_server old patch in
     let w := store_server H c in
     s_ports w = s_ports c /\ s_adv w = s_adv c /\ s_log w = s_log c /\ s_mtu w = s_mtu c /\
     s_egress w = s_egress c /\ s_dns w = s_dns c /\ s_tp w = s_tp c /\
     Forall2 (hashed_from false) (s_users c) (s_users w)).
  Proof.
    intros old patch. split; [apply store_server_clean|].
    repeat split. apply hash_users_no_plaintext.
  Qed.

  Lemma store_profile_spec : forall p,
    p_name (store_profile H p) = p_name p /\ p_rest (store_profile H p) = p_rest p /\
    match p_user p with
    | None => p_user (store_profile H p) = None
    | Some u => exists u', p_user (store_profile H p) = Some u' /\ hashed_from true u u'
    end.
  Proof.
    intro p. unfold store_profile; simpl. repeat split.
    destruct (p_user p) as [u|]; [|reflexivity].
    exists (hash_user H true u). split; [reflexivity | apply hash_user_spec].
  Qed.
End HashProofs.

Example ex_hash :
  hash_users toy_hash false [ex_user [97]%N [112; 119]%N; mkUser (Some [98]%N) None (Some [1;2]%N) [] [7]%N] =
  [mkUser (Some [97]%N) (Some []) (Some [256; 112; 119; 0; 97]%N) [] []; mkUser (Some [98]%N) None (Some [1;2]%N) [] [7]%N].
Proof. vm_compute. reflexivity. Qed.

Lemma has_prefix_app : forall p s, has_prefix p s = true -> exists r, s = p ++ r.
Proof.
  induction p as [|x p IH]; simpl; intros s Hp.
  - exists s. reflexivity.
  - destruct s as [|y s]; [discriminate|].
    apply andb_true_iff in Hp. destruct Hp as [Hxy Hp]. apply N.eqb_eq in Hxy. subst y.
    destruct (IH s Hp) as [r Hr]. exists r. subst s. reflexivity.
Qed.

(* once the prefix is known to be there, s[8:] is in range *)
Lemma link_guard_cases : forall s u,
  (exists e, link_guard s u = Err e) \/
  (exists p, link_guard s u = Ok p /\
             s = s_mieru_prefix ++ p /\ ul_ok u = true /\ ul_scheme u = s_mieru /\ ul_opaque u = []).
Proof.
  intros s u. unfold link_guard.
  destruct (ul_ok u); cbn [negb]; [|left; eauto].
  destruct (bytes_eqb (ul_scheme u) s_mieru) eqn:Es; cbn [negb]; [|left; eauto].
  destruct (ul_opaque u) as [|o os]; cbn [negb is_empty]; [|left; eauto].
  destruct (has_prefix s_mieru_prefix s) eqn:Hp; cbn [negb]; [|left; eauto].
  apply has_prefix_app in Hp. destruct Hp as [r ->]. apply bytes_eqb_eq in Es.
  right. exists r. auto.
Qed.

Example ex_link_ok :
  link_guard (s_mieru_prefix ++ [81; 81; 61; 61])%N (mkUrl true s_mieru []) = Ok [81; 81; 61; 61]%N.
Proof. reflexivity. Qed.
Example ex_link_short : link_guard [109; 105; 101; 114; 117; 58]%N (mkUrl true s_mieru []) = Err 4.
Proof. reflexivity. Qed.

Lemma guard_panic : forall (A : Type) (c : bool) (e : N) (r : outcome A),
  (if c then Err e else r) = Panic -> r = Panic.
Proof. intros A [|] e r Hp; [discriminate Hp | exact Hp]. Qed.

Lemma link_guard_v0_panic : forall s u, link_guard_v0 s u = Panic -> (length s < 8)%nat.
Proof.
  intros s u Hp. unfold link_guard_v0 in Hp. do 3 apply guard_panic in Hp.
  unfold go_slice_from in Hp. destruct (Nat.ltb (length s) 8) eqn:E; [|discriminate Hp].
  apply Nat.ltb_lt, E.
Qed.

Lemma parse_url_ports_no_panic : forall ports protos idx acc,
  (idx + length ports = length protos)%nat -> parse_url_ports idx ports protos acc <> Panic.
Proof.
  induction ports as [|p t IH]; simpl; intros protos idx acc Hl; [discriminate|].
  destruct (parse_url_port p) as [up|e]; [|discriminate].
  destruct (nth_error protos idx) as [pv|] eqn:E.
  - apply IH. lia.
  - apply nth_error_None in E. lia.
Qed.

(* every check ends in an error; only protocolList[idx] can panic, and the lengths have been compared by then *)
Lemma simple_link_panic : forall u, simple_link u = Panic ->
  parse_url_ports 0 (su_ports u) (su_protos u) [] = Panic /\ length (su_ports u) = length (su_protos u).
Proof.
  intros u Hp. unfold simple_link in Hp.
  repeat apply guard_panic in Hp.
  destruct (if is_empty (su_mtu u) then Some None else _); [|discriminate Hp].
  do 2 apply guard_panic in Hp.
  destruct (Nat.eqb (length (su_ports u)) (length (su_protos u))) eqn:Hn; cbn [negb] in Hp; [|discriminate Hp].
  apply Nat.eqb_eq in Hn. split; [|exact Hn].
  destruct (parse_url_ports 0 (su_ports u) (su_protos u) []); congruence.
Qed.

(* the path of URLToClientProfile on which every check passes *)
Lemma simple_link_ok : forall u mtu bs,
  ul_ok (su_url u) = true -> bytes_eqb (ul_scheme (su_url u)) s_mierus = true ->
  is_empty (ul_opaque (su_url u)) = true -> su_has_user u = true ->
  is_empty (su_user u) = false -> is_empty (su_pw u) = false -> is_empty (su_host u) = false ->
  su_query_ok u = true -> is_empty (su_profile u) = false ->
  (if is_empty (su_mtu u) then Some None
   else match atoi (su_mtu u) with Some m => Some (Some (to_int32 m)) | None => None end) = Some mtu ->
  su_tp_status u = 0%N ->
  Nat.eqb (length (su_ports u)) (length (su_protos u)) = true ->
  parse_url_ports 0 (su_ports u) (su_protos u) [] = Ok bs ->
  simple_link u =
  Ok (mkSprofile (su_profile u) (su_user u) (su_pw u)
        (if su_host_is_ip u then Some (su_host u) else None)
        (if su_host_is_ip u then None else Some (su_host u))
        mtu
        (if is_empty (su_mux u) then None else Some (su_mux_val u))
        (if is_empty (su_hs u) then None else Some (su_hs_val u))
        (negb (is_empty (su_tp u)))
        bs).
Proof.
  intros u mtu bs H1 H2 H3 H4 H5 H6 H7 H8 H9 Hmtu Htp Hlen Hports. unfold simple_link.
  rewrite H1, H2, H3, H4, H5, H6, H7, H8, H9, Hmtu, Htp, Hlen, Hports.
  destruct (is_empty (su_tp u)); reflexivity.
Qed.

Lemma port_ok_iff : forall p, port_ok p = true <-> (1 <= p <= 65535)%Z.
Proof.
  intro p. unfold port_ok. split.
  - intro Hp. apply andb_true_iff in Hp. destruct Hp as [A B]. apply Z.leb_le in A, B. auto.
  - intros [A B]. apply andb_true_iff. split; apply Z.leb_le; assumption.
Qed.

Lemma span_digits_spec : forall s d r, span_digits s = (d, r) ->
  s = d ++ r /\ forallb is_digit d = true.
Proof.
  induction s as [|b t IH]; cbn [span_digits]; intros d r Hs.
  - inversion Hs; subst. auto.
  - destruct (is_digit b) eqn:Eb.
    + destruct (span_digits t) as [d' r'] eqn:Et. inversion Hs; subst.
      destruct (IH d' r eq_refl) as [H1 H2]. subst t. cbn [forallb app]. rewrite Eb, H2. auto.
    + inversion Hs; subst. auto.
Qed.

Lemma span_digits_app : forall d c r, forallb is_digit d = true -> is_digit c = false ->
  span_digits (d ++ c :: r) = (d, c :: r).
Proof.
  induction d as [|x d IH]; cbn [span_digits app forallb]; intros c r Hd Hc.
  - rewrite Hc. reflexivity.
  - apply andb_true_iff in Hd. destruct Hd as [Hx Hd]. rewrite Hx, (IH _ _ Hd Hc). reflexivity.
Qed.

Lemma match_port_range_iff : forall s d1 d2,
  match_port_range s = Some (d1, d2) <->
  s = d1 ++ 45%N :: d2 /\ d1 <> [] /\ d2 <> [] /\ forallb is_digit d1 = true /\ forallb is_digit d2 = true.
Proof.
  intros s d1 d2. unfold match_port_range. split.
  - destruct (span_digits s) as [e1 r] eqn:Es. apply span_digits_spec in Es. destruct Es as [-> He1].
    destruct e1 as [|c1 t1]; [discriminate|]. destruct r as [|c e2]; [discriminate|].
    destruct (N.eqb c 45) eqn:Ec; [|discriminate]. apply N.eqb_eq in Ec. subst c.
    destruct e2 as [|c2 t2]; [discriminate|].
    destruct (forallb is_digit (c2 :: t2)) eqn:He2; [|discriminate].
    intro Hx. injection Hx as <- <-. repeat split; (assumption || discriminate).
  - intros (-> & Hn1 & Hn2 & Hd1 & Hd2).
    rewrite span_digits_app by (assumption || reflexivity).
    destruct d1; [congruence|]. rewrite N.eqb_refl. destruct d2; [congruence|]. rewrite Hd2. reflexivity.
Qed.

Lemma digit_not_sign : forall c, is_digit c = true -> N.eqb c 43 = false /\ N.eqb c 45 = false.
Proof.
  intros c Hc. split; apply N.eqb_neq; intros ->; discriminate Hc.
Qed.

(* strconv.Atoi on a string of digits: no sign to strip, only the int64 range check is left *)
Lemma atoi_digits : forall d, d <> [] -> forallb is_digit d = true ->
  atoi d = if (Z.leb int64_min (digits_val d) && Z.leb (digits_val d) int64_max)
           then Some (digits_val d) else None.
Proof.
  intros [|c t] Hne Hd; [congruence|]. unfold atoi.
  assert (Hc : is_digit c = true) by (cbn [forallb] in Hd; apply andb_true_iff in Hd; tauto).
  destruct (digit_not_sign c Hc) as [E1 E2]. rewrite E1, E2. cbn [orb]. rewrite Hd. reflexivity.
Qed.

Lemma atoi_digits_inv : forall d a, d <> [] -> forallb is_digit d = true -> atoi d = Some a -> a = digits_val d.
Proof.
  intros d a Hne Hd. rewrite atoi_digits by assumption.
  destruct (_ && _); congruence.
Qed.

Lemma atoi_small : forall d, d <> [] -> forallb is_digit d = true -> (1 <= digits_val d <= 65535)%Z ->
  atoi d = Some (digits_val d).
Proof.
  intros d Hne Hd Hr. rewrite atoi_digits by assumption.
  assert (Hi : Z.leb int64_min (digits_val d) && Z.leb (digits_val d) int64_max = true).
  { unfold int64_min, int64_max.
    apply andb_true_iff. split; apply Z.leb_le; lia. }
  rewrite Hi. reflexivity.
Qed.

Definition port_range_spec (s : bytes) (a b : Z) : Prop :=
  exists d1 d2, s = d1 ++ 45%N :: d2 /\ d1 <> [] /\ d2 <> [] /\
    forallb is_digit d1 = true /\ forallb is_digit d2 = true /\
    a = digits_val d1 /\ b = digits_val d2 /\
    (1 <= a <= 65535)%Z /\ (1 <= b <= 65535)%Z /\ (a <= b)%Z.

Theorem parse_port_range_iff : forall s a b,
  parse_port_range s = Some (a, b) <-> port_range_spec s a b.
Proof.
  intros s a b. unfold parse_port_range. split.
  - destruct (match_port_range s) as [[d1 d2]|] eqn:Em; [|discriminate].
    apply match_port_range_iff in Em. destruct Em as (Hs & Hn1 & Hn2 & Hd1 & Hd2).
    destruct (atoi d1) as [a'|] eqn:Ea; [|discriminate]. apply atoi_digits_inv in Ea; [|assumption..].
    destruct (atoi d2) as [b'|] eqn:Eb; [|discriminate]. apply atoi_digits_inv in Eb; [|assumption..].
    destruct (port_ok a') eqn:Ra; [|discriminate]. destruct (port_ok b') eqn:Rb; [|discriminate].
    destruct (Z.leb a' b') eqn:Hab; [|discriminate]. apply port_ok_iff in Ra, Rb. apply Z.leb_le in Hab.
    intro Hx. injection Hx as <- <-. exists d1, d2. repeat (split; [assumption|]). exact Hab.
  - intros (d1 & d2 & Hs & Hn1 & Hn2 & Hd1 & Hd2 & -> & -> & Ra & Rb & Hab).
    rewrite (proj2 (match_port_range_iff s d1 d2)) by (repeat (split; [assumption|]); assumption).
    rewrite !atoi_small by assumption.
    apply port_ok_iff in Ra, Rb. apply Z.leb_le in Hab. rewrite Ra, Rb, Hab. reflexivity.
Qed.

Example ex_port_range : parse_port_range [50; 48; 49; 50; 45; 50; 48; 50; 50]%N = Some (2012, 2022)%Z.
Proof. vm_compute. reflexivity. Qed.
Example ex_port_range_bad : parse_port_range [50; 48; 45; 49; 48]%N = None /\ parse_port_range [45; 49]%N = None
  /\ parse_port_range [48; 45; 49]%N = None /\ parse_port_range [49; 45; 54; 53; 53; 51; 54]%N = None.
Proof. vm_compute. auto. Qed.

(* so a binding the URL importer writes ("%d-%d" of an accepted range) is accepted by FlatPortBindings: stated on
   the parsed values, the decimal printer being library code *)
Lemma parse_url_port_in_range : forall s up, parse_url_port s = inl up ->
  match up with
  | UPort p => (1 <= p <= 65535)%Z
  | URange a b => (1 <= a <= 65535)%Z /\ (1 <= b <= 65535)%Z /\ (a <= b)%Z
  end.
Proof.
  intros s up. unfold parse_url_port.
  destruct (atoi s) as [n|].
  - destruct (port_ok n) eqn:E; [|discriminate]. intro Hx. injection Hx as <-. apply port_ok_iff. exact E.
  - destruct (split_dash s) as [|x [|y [|z l]]]; try discriminate.
    destruct (atoi x) as [a|]; [|discriminate]. destruct (atoi y) as [b|]; [|discriminate].
    destruct (port_ok a) eqn:Ea; cbn [negb]; [|discriminate].
    destruct (port_ok b) eqn:Eb; cbn [negb]; [|discriminate].
    destruct (Z.ltb b a) eqn:El; [discriminate|].
    intro Hx. injection Hx as <-. apply port_ok_iff in Ea, Eb. apply Z.ltb_ge in El. auto.
Qed.

(* Each validator returns the code of the first check that fails, 0 if none does.  What "= 0" gives is stated with
   the checks as the boolean tests of the validator's own text, so that they rewrite it. *)

Lemma first_err_zero : forall (A : Type) (f : A -> N) l,
  first_err f l = 0%N <-> Forall (fun x => f x = 0%N) l.
Proof.
  intros A f. induction l as [|x t IH]; simpl; split; intro Hh; try constructor; auto.
  - destruct (N.eqb (f x) 0) eqn:E; [apply N.eqb_eq in E; exact E | rewrite Hh in E; discriminate].
  - destruct (N.eqb (f x) 0) eqn:E; [apply IH; exact Hh | rewrite Hh in E; discriminate].
  - inversion Hh as [|? ? H1 H2]; subst. rewrite H1. simpl. apply IH. exact H2.
Qed.

(* the code of an earlier validator is handed on unless it is 0 *)
Lemma handed_code_zero : forall e r : N, (if negb (N.eqb e 0) then e else r) = 0%N <-> e = 0%N /\ r = 0%N.
Proof.
  intros e r. destruct (N.eqb e 0) eqn:E; cbn [negb].
  - apply N.eqb_eq in E. split; [auto | intros [_ Hr]; exact Hr].
  - apply N.eqb_neq in E. split; [intro Hc | intros [Hc _]]; contradiction.
Qed.

(* the checks on name and password that ValidateServerConfigSingleUser and ValidateClientConfigSingleProfile share *)
Definition cred_ok (u : user) : Prop :=
  is_empty (uname u) = false /\
  is_empty (getb (u_pw u)) && is_empty (getb (u_hpw u)) = false /\
  Z.ltb C20_MaxUserNameLen (blen (uname u)) = false /\
  negb (is_empty (getb (u_pw u))) && Z.ltb C20_MaxPasswordLen (blen (getb (u_pw u))) = false.

Lemma cred_ok_name : forall u, cred_ok u ->
  is_empty (uname u) = false /\ Z.ltb C20_MaxUserNameLen (blen (uname u)) = false.
Proof. intros u (E1 & _ & E2 & _). auto. Qed.

Lemma validate_user_ok : forall u,
  validate_user u = 0%N <-> cred_ok u /\ first_err validate_quota (u_quotas u) = 0%N.
Proof.
  intro u. unfold validate_user, cred_ok. split.
  - destruct (is_empty (uname u)); [discriminate|].
    destruct (is_empty (getb (u_pw u)) && is_empty (getb (u_hpw u))); [discriminate|].
    destruct (Z.ltb C20_MaxUserNameLen (blen (uname u))); [discriminate|].
    destruct (negb (is_empty (getb (u_pw u))) && _); [discriminate|]. auto.
  - intros ((H1 & H2 & H3 & H4) & Hq). rewrite H1, H2, H3, H4. exact Hq.
Qed.

Lemma server_ep_check_ok : forall s, server_ep_check s = 0%N ->
  is_empty (se_ip s) && is_empty (se_domain s) = false /\
  negb (is_empty (se_ip s)) && negb (se_ip_ok s) = false /\
  is_empty_list (se_bindings s) = false /\
  flat_ok (se_bindings s) = true.
Proof.
  intro s. unfold server_ep_check.
  destruct (is_empty (se_ip s) && is_empty (se_domain s)); [discriminate|].
  destruct (negb (is_empty (se_ip s)) && negb (se_ip_ok s)); [discriminate|].
  destruct (is_empty_list (se_bindings s)); [discriminate|].
  destruct (flat_ok (se_bindings s)); [auto | discriminate].
Qed.

Lemma validate_profile_ok : forall p, validate_profile p = 0%N ->
  is_empty (pname p) = false /\ cred_ok (puser p) /\
  is_empty_list (u_quotas (puser p)) = true /\ is_empty_list (p_servers p) = false /\
  Forall (fun s => server_ep_check s = 0%N) (p_servers p) /\
  mtu_valid (getz (p_mtu p)) = true /\ tp_valid (p_tp p) = true /\ dialer_valid (p_dialer p) = true.
Proof.
  intro p. unfold validate_profile, cred_ok.
  destruct (is_empty (pname p)); [discriminate|].
  destruct (is_empty (uname (puser p))); [discriminate|].
  destruct (is_empty (getb (u_pw (puser p))) && is_empty (getb (u_hpw (puser p)))); [discriminate|].
  destruct (Z.ltb C20_MaxUserNameLen (blen (uname (puser p)))); [discriminate|].
  destruct (negb (is_empty (getb (u_pw (puser p)))) && _); [discriminate|].
  destruct (is_empty_list (u_quotas (puser p))); [|discriminate].
  destruct (is_empty_list (p_servers p)); [discriminate|].
  cbn [negb]. intro Hh. apply handed_code_zero in Hh. destruct Hh as [Es Hh].
  apply first_err_zero in Es. revert Hh.
  destruct (mtu_valid (getz (p_mtu p))); [|discriminate].
  destruct (tp_valid (p_tp p)); [|discriminate].
  destruct (dialer_valid (p_dialer p)); [|discriminate].
  intros _. repeat split. exact Es.
Qed.

(* of a validated profile, what exporting one of its servers needs *)
Lemma validate_profile_server : forall p s, validate_profile p = 0%N -> In s (p_servers p) ->
  mtu_valid (getz (p_mtu p)) = true /\ flat_ok (se_bindings s) = true.
Proof.
  intros p s Hv Hin. apply validate_profile_ok in Hv. destruct Hv as (_ & _ & _ & _ & Hs & Hm & _).
  apply (proj1 (Forall_forall _ _) Hs), server_ep_check_ok in Hin. destruct Hin as (_ & _ & _ & Hf). auto.
Qed.

Definition egress_ok (e : option egress_rec) : Prop :=
  exists used, validate_proxies [] (match e with Some r => eg_proxies r | None => [] end) = Some used /\
               forallb (rule_valid used) (match e with Some r => eg_rules r | None => [] end) = true.

Definition server_patch_ok (c : server_cfg) : Prop :=
  flat_ok (getports (s_ports c)) = true /\
  Forall (fun u => validate_user u = 0%N) (s_users c) /\
  mtu_valid (getz (s_mtu c)) = true /\
  egress_ok (s_egress c) /\
  dns_valid (s_dns c) = true /\
  interval_valid (s_adv c) = true /\
  tp_valid (s_tp c) = true.

Lemma validate_server_patch_ok : forall c, validate_server_patch c = 0%N <-> server_patch_ok c.
Proof.
  intro c. unfold validate_server_patch. split.
  - destruct (flat_ok (getports (s_ports c))) eqn:E1; cbn [negb]; [|discriminate].
    intro Hh. apply handed_code_zero in Hh. destruct Hh as [Eu Hh]. apply first_err_zero in Eu. revert Hh.
    destruct (mtu_valid (getz (s_mtu c))) eqn:E3; cbn [negb]; [|discriminate].
    destruct (validate_proxies [] _) as [used|] eqn:E4; [|discriminate].
    destruct (forallb (rule_valid used) _) eqn:Er; cbn [negb]; [|discriminate].
    destruct (dns_valid (s_dns c)) eqn:E5; cbn [negb]; [|discriminate].
    destruct (interval_valid (s_adv c)) eqn:E6; cbn [negb]; [|discriminate].
    destruct (tp_valid (s_tp c)) eqn:E7; cbn [negb]; [|discriminate].
    intros _. repeat split; try assumption. exists used. split; assumption.
  - intros (Hp & Hu & Hm & (used & Hx & Hr) & Hd & Hi & Ht).
    apply first_err_zero in Hu. rewrite Hp, Hu, Hm, Hx, Hr, Hd, Hi, Ht. reflexivity.
Qed.

Theorem merge_server_patch_valid : forall old patch,
  validate_server_patch old = 0%N -> validate_server_patch patch = 0%N ->
  validate_server_patch (merge_server old patch) = 0%N.
Proof.
  intros old patch Ho Hp. apply validate_server_patch_ok in Ho, Hp. apply validate_server_patch_ok.
  destruct Ho as (O1 & O2 & O3 & O4 & O5 & O6 & O7). destruct Hp as (P1 & P2 & P3 & P4 & P5 & P6 & P7).
  unfold server_patch_ok, merge_server; cbn [s_ports s_users s_adv s_log s_mtu s_egress s_dns s_tp].
  repeat split.
  2: apply merge_by_name_Forall; assumption.
  (* every other field is [orelse patch old] under the validator's test, which holds of both; the MTU is read back
     through its getter, [getz (Some (getz (orelse patch old)))], which computes to the getter of the merged field *)
  all: apply orelse_cases; assumption.
Qed.

(* of the two last checks of ValidateFullServerConfig only "no port binding" can fail alone: an empty
   configuration has no port binding either *)
Lemma validate_full_server_ok : forall c,
  validate_full_server c = 0%N <-> validate_server_patch c = 0%N /\ getports (s_ports c) <> [].
Proof.
  intro c. unfold validate_full_server. apply (iff_trans (handed_code_zero _ _)), and_iff_compat_l.
  unfold server_is_empty.
  destruct (getports (s_ports c)) as [|b l]; cbn [is_empty_list andb].
  - destruct (is_empty_list (s_users c) && _); split; (discriminate || intro Hne; destruct Hne; reflexivity).
  - split; [intros _; discriminate | reflexivity].
Qed.

(* a fully valid configuration; a valid patch with a non-nil EMPTY portBindings list *)
Definition ex_full_old : server_cfg :=
  mkServer (Some [mkPB (Some 2012%Z) (Some 2%Z) None]) [] None None None None None None.
Definition ex_empty_ports_patch : server_cfg := mkServer (Some []) [] None None None None None None.

Definition client_patch_ok (c : client_cfg) : Prop :=
  Forall (fun p => validate_profile p = 0%N) (c_profiles c) /\
  forallb (fun a => negb (is_empty (au_user a)) && negb (is_empty (au_pw a))) (getauth (c_auth c)) = true /\
  interval_valid (c_adv c) = true.

Lemma validate_client_patch_ok : forall c, validate_client_patch c = 0%N <-> client_patch_ok c.
Proof.
  intro c. unfold validate_client_patch, client_patch_ok. split.
  - intro Hh. apply handed_code_zero in Hh. destruct Hh as [E Hh]. apply first_err_zero in E. revert Hh.
    destruct (forallb _ (getauth (c_auth c))); cbn [negb]; [|discriminate].
    destruct (interval_valid (c_adv c)); cbn [negb]; [|discriminate]. auto.
  - intros (H1 & H2 & H3). apply first_err_zero in H1. rewrite H1, H2, H3. reflexivity.
Qed.

Theorem merge_client_patch_valid : forall old patch,
  validate_client_patch old = 0%N -> validate_client_patch patch = 0%N ->
  validate_client_patch (merge_client old patch) = 0%N.
Proof.
  intros old patch Ho Hp. apply validate_client_patch_ok in Ho, Hp. apply validate_client_patch_ok.
  destruct Ho as (O1 & O2 & O3). destruct Hp as (P1 & P2 & P3).
  unfold client_patch_ok, merge_client; cbn [c_profiles c_auth c_adv]. repeat split.
  1: apply merge_by_name_Forall; assumption.
  all: apply orelse_cases; assumption.
Qed.

(* the port checks of ValidateFullClientConfig *)
Definition client_ports_code (rpc s5 : Z) (http : option Z) : N :=
  if negb (zin 0 C20_PortMax rpc) then 56%N
  else if negb (zin C20_PortMin C20_PortMax s5) then 57%N
  else if Z.eqb rpc s5 then 58%N
  else match http with
       | None => 0%N
       | Some h => if negb (zin C20_PortMin C20_PortMax h) then 59%N
                   else if Z.eqb h rpc then 60%N
                   else if Z.eqb h s5 then 61%N
                   else 0%N
       end.

(* "no profile" cannot fail alone: without profiles the active one is not found either *)
Lemma validate_full_client_ok : forall c,
  validate_full_client c = 0%N <->
  validate_client_patch c = 0%N /\ is_empty (getb (c_active c)) = false /\
  existsb (fun p => bytes_eqb (pname p) (getb (c_active c))) (c_profiles c) = true /\
  client_ports_code (getz (c_rpc c)) (getz (c_socks5 c)) (c_http c) = 0%N.
Proof.
  intro c. unfold validate_full_client.
  fold (client_ports_code (getz (c_rpc c)) (getz (c_socks5 c)) (c_http c)).
  apply (iff_trans (handed_code_zero _ _)), and_iff_compat_l.
  destruct (c_profiles c) as [|p0 t]; cbn [is_empty_list].
  - split; [discriminate | intros (_ & Hf & _); discriminate Hf].
  - destruct (is_empty (getb (c_active c))); [split; [discriminate | intros (Hf & _); discriminate Hf]|].
    destruct (existsb _ (p0 :: t)); cbn [negb].
    + split; [auto | intros (_ & _ & Hc); exact Hc].
    + split; [discriminate | intros (_ & Hf & _); discriminate Hf].
Qed.

(* a fully valid client configuration; two valid patches, one with socks5Port 70000, one naming an active profile
   that does not exist *)
Definition ex_profile : profile :=
  mkProfile (Some [112]%N) (Some (mkUser (Some [117]%N) (Some [120]%N) None [] []))
            [mkEp [49]%N true [] false [mkPB (Some 2012%Z) (Some 2%Z) None]] None None None None None [].
Definition ex_client : client_cfg :=
  mkClient [ex_profile] (Some [112]%N) (Some 8964%Z) (Some 1080%Z) None None None None None None.
Definition ex_bad_port_patch : client_cfg :=
  mkClient [] None None (Some 70000%Z) None None None None None None.
Definition ex_bad_active_patch : client_cfg :=
  mkClient [] (Some [113]%N) None None None None None None None None.

(* the stored hash is never empty, so a user who passed the "password or hash" check still does after hashing *)
Lemma hash_user_valid : forall H : bytes -> bytes, (forall x, H x <> []) ->
  forall u, validate_user u = 0%N -> validate_user (hash_user H false u) = 0%N.
Proof.
  intros H H_nonempty u Hv. unfold hash_user. destruct (u_pw u) as [[|b pw]|] eqn:E; try exact Hv.
  apply validate_user_ok in Hv. apply validate_user_ok.
  destruct Hv as (Hc & Q). destruct (cred_ok_name u Hc) as [N1 N3]. unfold cred_ok, uname in *.
  cbn [u_name u_pw u_hpw u_quotas getb is_empty andb negb].
  repeat split; try assumption.
  destruct (H _) eqn:Eh; [destruct (H_nonempty _ Eh) | reflexivity].
Qed.

Lemma store_server_patch_valid : forall H : bytes -> bytes, (forall x, H x <> []) ->
  forall c, validate_server_patch c = 0%N -> validate_server_patch (store_server H c) = 0%N.
Proof.
  intros H H_nonempty c Hp. apply validate_server_patch_ok in Hp. apply validate_server_patch_ok.
  destruct Hp as (P1 & P2 & P3 & P4 & P5 & P6 & P7).
  unfold server_patch_ok, store_server; cbn [s_ports s_users s_adv s_log s_mtu s_egress s_dns s_tp].
  repeat split; try assumption.
  apply Forall_map. revert P2. apply Forall_impl, hash_user_valid, H_nonempty.
Qed.

Lemma split_dash_aux_digits : forall d rest cur, forallb is_digit d = true ->
  split_dash_aux (d ++ rest) cur = split_dash_aux rest (rev d ++ cur).
Proof.
  induction d as [|b d IH]; intros rest cur Hd; [reflexivity|].
  cbn [forallb] in Hd. apply andb_true_iff in Hd. destruct Hd as [Hb Hd].
  destruct (digit_not_sign b Hb) as [_ E].
  change ((b :: d) ++ rest) with (b :: (d ++ rest)). cbn [split_dash_aux]. rewrite E.
  rewrite IH by assumption. cbn [rev]. rewrite <- app_assoc. reflexivity.
Qed.

Lemma split_dash_two : forall d1 d2, forallb is_digit d1 = true -> forallb is_digit d2 = true ->
  split_dash (d1 ++ 45%N :: d2) = [d1; d2].
Proof.
  intros d1 d2 H1 H2. unfold split_dash. rewrite split_dash_aux_digits by assumption.
  cbn [split_dash_aux]. rewrite N.eqb_refl. rewrite app_nil_r, rev_involutive.
  rewrite <- (app_nil_r d2) at 1. rewrite split_dash_aux_digits by assumption.
  cbn [split_dash_aux]. rewrite app_nil_r, rev_involutive. reflexivity.
Qed.

Lemma atoi_with_dash : forall d1 d2, d1 <> [] -> forallb is_digit d1 = true -> atoi (d1 ++ 45%N :: d2) = None.
Proof.
  intros [|c t] d2 Hne Hd; [congruence|].
  assert (Hc : is_digit c = true) by (cbn [forallb] in Hd; apply andb_true_iff in Hd; tauto).
  destruct (digit_not_sign c Hc) as [E1 E2].
  assert (Hf : forallb is_digit ((c :: t) ++ 45%N :: d2) = false).
  { rewrite forallb_app. cbn [forallb]. change (is_digit 45) with false. apply andb_false_r. }
  cbn [app] in *. unfold atoi. rewrite E1, E2. cbn [orb]. rewrite Hf. reflexivity.
Qed.

Lemma range_url : forall s a b, parse_port_range s = Some (a, b) -> parse_url_port s = inl (URange a b).
Proof.
  intros s a b Hp. apply parse_port_range_iff in Hp.
  destruct Hp as (d1 & d2 & -> & Hn1 & Hn2 & Hd1 & Hd2 & -> & -> & Ra & Rb & Hab).
  unfold parse_url_port. rewrite atoi_with_dash, split_dash_two, !atoi_small by assumption.
  apply port_ok_iff in Ra, Rb. apply Z.ltb_ge in Hab. rewrite Ra, Rb, Hab. reflexivity.
Qed.

Definition binding_unambiguous (b : port_binding) : Prop := getz (pb_port b) = 0%Z \/ getb (pb_range b) = [].
Definition port_text (itoa : Z -> bytes) (x : bytes + Z) : bytes := match x with inl r => r | inr n => itoa n end.

Lemma flat_ok_forall : forall bs, flat_ok bs = true -> Forall (fun b => flat_binding b <> None) bs.
Proof.
  intros bs Hf. apply Forall_forall. intros b Hin.
  apply (proj1 (forallb_forall _ _) Hf) in Hin. destruct (flat_binding b); discriminate.
Qed.

Lemma export_server_some : forall ep p s f, export_server_with ep p s = Some f ->
  is_empty (pname p) = false /\ is_empty (uname (puser p)) = false /\ is_empty (getb (u_pw (puser p))) = false /\
  exists host isip, is_empty host = false /\
    f = mkLF (uname (puser p)) (getb (u_pw (puser p))) host isip (pname p) (p_mtu p) (p_mux p) (p_hs p)
             (match p_tp p with Some t => Some (tp_raw t) | None => None end)
             (map ep (se_bindings s)) (map (fun b => getz (pb_proto b)) (se_bindings s)).
Proof.
  intros ep p s f. unfold export_server_with.
  destruct (is_empty (pname p)); [discriminate|].
  destruct (is_empty (uname (puser p))); [discriminate|].
  destruct (is_empty (getb (u_pw (puser p)))); [discriminate|]. cbn [orb].
  destruct (is_empty (se_domain s)) eqn:Ed; cbn [negb].
  - destruct (is_empty (se_ip s)) eqn:Ei; cbn [negb]; [discriminate|].
    destruct (is_empty_list (se_bindings s)); [discriminate|]. intro Hf. injection Hf as <-.
    repeat split. exists (se_ip s), (se_ip_ok s). split; [exact Ei | reflexivity].
  - destruct (is_empty_list (se_bindings s)); [discriminate|]. intro Hf. injection Hf as <-.
    repeat split. exists (se_domain s), (se_domain_is_ip s). split; [exact Ed | reflexivity].
Qed.

Lemma to_int32_small : forall v, (- 2 ^ 31 <= v < 2 ^ 31)%Z -> to_int32 v = v.
Proof. intros v Hv. unfold to_int32. rewrite Z.mod_small; lia. Qed.

(* a name table without empty names: the query value is absent exactly when the field is *)
Lemma enum_roundtrip : forall (name : Z -> bytes) (o : option Z), (forall v, name v <> []) ->
  (if is_empty (match o with Some v => name v | None => [] end) then None else Some (getz o)) = o.
Proof.
  intros name [v|] Hn; [|reflexivity]. cbn [getz].
  destruct (name v) eqn:E; [destruct (Hn v E) | reflexivity].
Qed.

Section LinkRoundTrip.
  Variable itoa : Z -> bytes.
  Variable b64 : bytes -> bytes.
  Variables mux_name hs_name : Z -> bytes.
  (* the library steps invert each other; only ports and MTUs are printed, so int32 is all [itoa] is asked for *)
  Hypothesis itoa_atoi : forall n, (- 2 ^ 31 <= n < 2 ^ 31)%Z -> atoi (itoa n) = Some n.
  Hypothesis b64_empty : forall x, b64 x = [] <-> x = [].
  Hypothesis mux_name_nonempty : forall v, mux_name v <> [].
  Hypothesis hs_name_nonempty : forall v, hs_name v <> [].

  Lemma binding_roundtrip : forall b, flat_binding b <> None ->
    parse_url_port (port_text itoa (export_port b)) = inl (fst (binding_view b)).
  Proof.
    intros b Hv. unfold binding_view, export_port, flat_binding in *.
    destruct (Z.eqb (getz (pb_proto b)) C20_TransportUnknown); [congruence|].
    destruct (Z.eqb (getz (pb_port b)) 0) eqn:E0; cbn [negb port_text fst] in *.
    - destruct (parse_port_range (getb (pb_range b))) as [[a z]|] eqn:Ep; [|congruence].
      apply range_url. exact Ep.
    - destruct (port_ok (getz (pb_port b))) eqn:Ep; cbn [andb] in Hv; [|congruence].
      unfold parse_url_port. pose proof (proj1 (port_ok_iff _) Ep).
      rewrite itoa_atoi by lia. rewrite Ep. reflexivity.
  Qed.

  (* [pre] and [acc]: the protocols and results of the bindings already gone through *)
  Lemma ports_roundtrip : forall bs pre acc,
    Forall (fun b => flat_binding b <> None) bs ->
    parse_url_ports (length pre) (map (port_text itoa) (map export_port bs))
                    (pre ++ map (fun b => getz (pb_proto b)) bs) acc =
    Ok (rev acc ++ map binding_view bs).
  Proof.
    induction bs as [|b t IH]; intros pre acc Hall; cbn [map parse_url_ports].
    - rewrite app_nil_r. reflexivity.
    - inversion Hall as [|? ? Hv Ht]; subst.
      rewrite (binding_roundtrip b Hv).
      rewrite nth_error_app2 by lia. rewrite Nat.sub_diag. cbn [nth_error].
      replace (S (length pre)) with (length (pre ++ [getz (pb_proto b)])) by (rewrite app_length; simpl; lia).
      replace (pre ++ getz (pb_proto b) :: map (fun b0 => getz (pb_proto b0)) t)
        with ((pre ++ [getz (pb_proto b)]) ++ map (fun b0 => getz (pb_proto b0)) t) by (rewrite <- app_assoc; reflexivity).
      rewrite IH by assumption. cbn [rev]. rewrite <- app_assoc.
      unfold binding_view at 2. reflexivity.
  Qed.

  Lemma mtu_roundtrip : forall m : option Z, mtu_valid (getz m) = true ->
    (if is_empty (match m with Some v => itoa v | None => [] end) then Some None
     else match atoi (match m with Some v => itoa v | None => [] end) with
          | Some v => Some (Some (to_int32 v))
          | None => None
          end) = Some m.
  Proof.
    intros [v|] Hm; [|reflexivity].
    assert (Hr : (- 2 ^ 31 <= v < 2 ^ 31)%Z).
    { unfold mtu_valid, zin, C20_MtuMin, C20_MtuMax in Hm. cbn [getz] in Hm.
      apply orb_true_iff in Hm. destruct Hm as [Hm|Hm]; [apply Z.eqb_eq in Hm; lia|].
      apply andb_true_iff in Hm. destruct Hm as [A B]. apply Z.leb_le in A, B. lia. }
    pose proof (itoa_atoi v Hr) as Ha.
    destruct (itoa v); [cbn in Ha; discriminate Ha|]. cbn [is_empty]. rewrite Ha, to_int32_small by exact Hr. reflexivity.
  Qed.

  Lemma b64_is_empty : forall x, is_empty (b64 x) = is_empty x.
  Proof.
    intros [|c x].
    - rewrite (proj2 (b64_empty []) eq_refl). reflexivity.
    - destruct (b64 (c :: x)) eqn:E; [apply (proj1 (b64_empty _)) in E; discriminate E | reflexivity].
  Qed.

  (* the importer returns the part of the profile a link carries: needed of the profile are only an MTU that fits
     int32 and bindings FlatPortBindings accepts; the rest is non-empty because the exporter produced a link *)
  Theorem export_import : forall p s f,
    mtu_valid (getz (p_mtu p)) = true -> flat_ok (se_bindings s) = true ->
    export_server p s = Some f ->
    simple_link (link_as_parsed itoa b64 mux_name hs_name f) = Ok (simple_view p s f).
  Proof.
    intros p s f Hm Hf He.
    destruct (export_server_some _ _ _ _ He) as (En & Eu & Epw & host & isip & Eh & ->).
    (* of the premises, those about [link_as_parsed]'s own fields compute and the non-emptiness ones are at hand;
       left are: the result, the MTU text, the two lengths, the ports *)
    rewrite (simple_link_ok _ (p_mtu p) (map binding_view (se_bindings s)));
      try reflexivity; try assumption.
    - unfold link_as_parsed, simple_view.
      cbn [su_host su_host_is_ip su_profile su_user su_pw su_mux su_mux_val su_hs su_hs_val su_tp
           lf_user lf_pw lf_host lf_host_is_ip lf_profile lf_mux lf_hs lf_tp].
      rewrite (enum_roundtrip mux_name _ mux_name_nonempty), (enum_roundtrip hs_name _ hs_name_nonempty).
      destruct (p_tp p) as [t|]; [rewrite b64_is_empty|]; reflexivity.
    - apply mtu_roundtrip. exact Hm.
    - cbn [link_as_parsed su_ports su_protos lf_ports lf_protos]. rewrite !map_length. apply Nat.eqb_refl.
    - apply (ports_roundtrip (se_bindings s) [] []), flat_ok_forall, Hf.
  Qed.
End LinkRoundTrip.

(* a validated profile whose binding has both a port and a (garbage) port range *)
Definition ex_ambiguous_profile : profile :=
  mkProfile (Some [112]%N) (Some (mkUser (Some [117]%N) (Some [120]%N) None [] []))
            [mkEp [49]%N true [] false [mkPB (Some 2012%Z) (Some 2%Z) (Some [120]%N)]] None None None None None [].

Example ex_ambiguous_now_exports_port :
  exists f, export_server ex_ambiguous_profile (mkEp [49]%N true [] false [mkPB (Some 2012%Z) (Some 2%Z) (Some [120]%N)]) = Some f /\
            lf_ports f = [inr 2012%Z].
Proof. eexists. split; vm_compute; reflexivity. Qed.

Definition store_clean (s : option server_cfg) : Prop :=
  match s with Some c => Forall no_plaintext (s_users c) | None => True end.
Definition out_clean (o : sout) : Prop :=
  match o with Accepted s => store_clean s | Rejected _ => True end.

Section History.
  Variable H : bytes -> bytes.

  Lemma step_shape : forall s o,
    (exists c, step H s o = (s, Rejected c)) \/
    step H s o = (s, Accepted s) \/
    (exists c, step H s o = (Some (store_server H c), Accepted (Some (store_server H c)))).
  Proof.
    intros s o. destruct o as [p| | | |cfg|names]; cbn [step].
    - destruct (negb (N.eqb (validate_server_patch p) 0)); [left; eauto|].
      destruct s as [old|]; [|left; eauto].
      destruct (negb (N.eqb (validate_full_server (merge_server old p)) 0)); [left; eauto | right; right; eauto].
    - left; eauto.
    - destruct s; [right; left; reflexivity | left; eauto].
    - destruct s; [right; left; reflexivity | left; eauto].
    - right; right; eauto.
    - destruct s; [right; right; eauto | left; eauto].
  Qed.

  Lemma run_outs_app : forall h1 h2 s,
    run_outs H s (h1 ++ h2) =
    (fst (run_outs H (fst (run_outs H s h1)) h2), snd (run_outs H s h1) ++ snd (run_outs H (fst (run_outs H s h1)) h2)).
  Proof.
    induction h1 as [|o t IH]; intros h2 s; cbn [app run_outs fst snd].
    - destruct (run_outs H s h2); reflexivity.
    - destruct (step H s o) as [s1 x]. rewrite IH.
      destruct (run_outs H s1 t) as [sf xs]. cbn [fst snd]. reflexivity.
  Qed.

  Theorem rejected_apply_is_noop : forall h1 o h2 s,
    is_rejected (snd (step H (fst (run_outs H s h1)) o)) = true ->
    fst (run_outs H s (h1 ++ o :: h2)) = fst (run_outs H s (h1 ++ h2)) /\
    exists c, snd (run_outs H s (h1 ++ o :: h2)) =
              snd (run_outs H s h1) ++ Rejected c :: snd (run_outs H (fst (run_outs H s h1)) h2) /\
              snd (run_outs H s (h1 ++ h2)) =
              snd (run_outs H s h1) ++ snd (run_outs H (fst (run_outs H s h1)) h2).
  Proof.
    intros h1 o h2 s Hr. rewrite !run_outs_app. cbn [fst snd run_outs].
    destruct (step_shape (fst (run_outs H s h1)) o) as [[c E]|[E|[c E]]]; rewrite E in *; try discriminate Hr.
    destruct (run_outs H (fst (run_outs H s h1)) h2) as [sf xs]. cbn [fst snd].
    split; [reflexivity|]. exists c. split; reflexivity.
  Qed.

  Theorem load_returns_stored : forall s o,
    let s' := fst (step H s o) in
    step H s' OpLoad = (s', match s' with Some c => Accepted (Some c) | None => Rejected 101 end) /\
    step H s' OpGetJSON = step H s' OpLoad /\
    (forall w, snd (step H s o) = Accepted w -> s' = w) /\
    (match o with OpLoad | OpGetJSON => s' = s | _ => True end).
  Proof.
    intros s o. cbn zeta. split; [reflexivity|]. split; [reflexivity|]. split.
    - intro w. destruct (step_shape s o) as [[c E]|[E|[c E]]]; rewrite E; cbn [fst snd]; congruence.
    - destruct o; exact I || reflexivity.
  Qed.

  Lemma step_clean : forall s o, store_clean s ->
    store_clean (fst (step H s o)) /\ out_clean (snd (step H s o)).
  Proof.
    intros s o Hc. destruct (step_shape s o) as [[c E]|[E|[c E]]]; rewrite E; cbn [fst snd out_clean store_clean].
    - split; [exact Hc | exact I].
    - split; exact Hc.
    - split; apply store_server_clean.
  Qed.

  Theorem history_no_plaintext : forall h s, store_clean s ->
    store_clean (fst (run_outs H s h)) /\ Forall out_clean (snd (run_outs H s h)).
  Proof.
    induction h as [|o t IH]; intros s Hc; cbn [run_outs].
    - split; [exact Hc | constructor].
    - destruct (step_clean s o Hc) as [H1 H2]. destruct (step H s o) as [s1 x]. cbn [fst snd] in *.
      destruct (IH s1 H1) as [H3 H4]. destruct (run_outs H s1 t) as [sf xs]. cbn [fst snd] in *.
      split; [exact H3 | constructor; assumption].
  Qed.
End History.

(* non-vacuity: users-only patch on a stored empty configuration is rejected (no port binding) *)
Definition ex_empty_server : server_cfg := mkServer None [] None None None None None None.
Definition ex_users_patch : server_cfg := mkServer None [ex_user [97]%N [112; 119]%N] None None None None None None.
Example ex_rejected_history :
  run_outs toy_hash None [OpStore ex_empty_server; OpApply ex_users_patch; OpLoad] =
  (Some ex_empty_server, [Accepted (Some ex_empty_server); Rejected 10; Accepted (Some ex_empty_server)]).
Proof. vm_compute. reflexivity. Qed.

Lemma name_fits_hint : forall name prefix,
  is_empty name = false -> Z.ltb C20_MaxUserNameLen (blen name) = false ->
  blen prefix = NoncePrefixLenForUserHint ->
  hint_input name prefix = Ok (name ++ prefix).
Proof.
  intros name prefix Hne Hlen Hp. unfold hint_input.
  assert (Hz : Z.eqb (blen name) 0 = false).
  { apply Z.eqb_neq. unfold blen. destruct name; [discriminate|]. simpl length. lia. }
  rewrite Hz, Hlen. f_equal. apply firstn_all2.
  apply Z.ltb_ge in Hlen. unfold blen in *. rewrite app_length.
  unfold C20_MaxUserNameLen, NoncePrefixLenForUserHint in *. lia.
Qed.

Theorem validated_name_fits_hint : forall prefix, blen prefix = NoncePrefixLenForUserHint ->
  (forall u, validate_user u = 0%N -> hint_input (uname u) prefix = Ok (uname u ++ prefix)) /\
  (forall p, validate_profile p = 0%N -> hint_input (uname (puser p)) prefix = Ok (uname (puser p) ++ prefix)).
Proof.
  intros prefix Hp. split.
  - intros u Hv. apply validate_user_ok in Hv. destruct (cred_ok_name u (proj1 Hv)) as [E1 E2].
    apply name_fits_hint; assumption.
  - intros p Hv. apply validate_profile_ok in Hv. destruct (cred_ok_name _ (proj1 (proj2 Hv))) as [E1 E2].
    apply name_fits_hint; assumption.
Qed.

(* 30 three-byte characters: 30 runes, 90 bytes -- rejected by the validator, would panic in the hint *)
Example ex_multibyte_name :
  let n := concat (repeat [230; 151; 165]%N 30) in
  validate_user (mkUser (Some n) (Some [120]%N) None [] []) = 23%N /\ hint_input n [] = Panic.
Proof. vm_compute. auto. Qed.
