(* model/Counter.v: a roll-up keeps the sum of the history, so value = history sum = sum of the increments; increments
   with non-decreasing timestamps and roll-ups keep the history ordered in time (invariant wf_history); on an ordered
   history DeltaBetween is the sum over the window. *)
From Coq Require Import ZArith List Bool Lia.
From M Require Import gen.Consts model.Counter.
Import ListNotations.
Open Scope Z_scope.

Local Notation MS := C19_MillisecondNs.
Lemma MS_pos : 0 < MS. Proof. reflexivity. Qed.

Lemma hsum_nil : hsum [] = 0. Proof. reflexivity. Qed.
Lemma hsum_cons e r : hsum (e :: r) = e_d e + hsum r. Proof. reflexivity. Qed.
Lemma hsum_app a b : hsum (a ++ b) = hsum a + hsum b.
Proof. induction a as [|x a IH]; cbn [app]; rewrite ?hsum_cons, ?hsum_nil; lia. Qed.
Lemma hsum_flush_some l : hsum (flush (Some l)) = e_d l. Proof. cbn. lia. Qed.
Lemma hsum_flush_none : hsum (flush None) = 0. Proof. reflexivity. Qed.

Lemma pass_sum : forall from to dur trunc now h last,
  hsum (pass from to dur trunc now last h) = hsum (flush last) + hsum h.
Proof.
  intros from to dur trunc now. induction h as [|e r IH]; intros last; cbn [pass]; cbv zeta.
  - rewrite hsum_nil. lia.
  - destruct (negb _ || _).
    + (* e is kept *)
      rewrite hsum_app, !hsum_cons, IH, hsum_flush_none. lia.
    + destruct last as [l|]; [destruct (e_t l =? _)|].
      * (* merged into the pending entry *)
        rewrite IH, !hsum_flush_some, hsum_cons. cbn [e_d]. lia.
      * (* pending entry emitted, e pending *)
        rewrite !hsum_cons, IH, !hsum_flush_some. cbn [e_d]. lia.
      * (* nothing pending, e pending *)
        rewrite IH, hsum_flush_some, hsum_flush_none, hsum_cons. cbn [e_d]. lia.
Qed.

Lemma do_roll_up_sum from to dur trunc now h : hsum (do_roll_up from to dur trunc now h) = hsum h.
Proof. exact (pass_sum from to dur trunc now h None). Qed.

Theorem rollup_sum : forall now h, hsum (roll_up now h) = hsum h.
Proof. intros. unfold roll_up. now rewrite !do_roll_up_sum. Qed.

Lemma roll_up_if_due_value now c : c_value (roll_up_if_due now c) = c_value c.
Proof. unfold roll_up_if_due. now destruct (_ =? 0). Qed.

Lemma roll_up_if_due_hsum now c : hsum (c_hist (roll_up_if_due now c)) = hsum (c_hist c).
Proof. unfold roll_up_if_due. destruct (_ =? 0); [apply rollup_sum | reflexivity]. Qed.

Lemma cadd_value c d t now : c_value (cadd c d t now) = c_value c + d.
Proof.
  unfold cadd. destruct (Z.eqb_spec d 0) as [->|_]; [cbn; lia|].
  now rewrite roll_up_if_due_value.
Qed.

Lemma cadd_hsum c d t now : hsum (c_hist (cadd c d t now)) = hsum (c_hist c) + d.
Proof.
  unfold cadd. destruct (Z.eqb_spec d 0) as [->|_]; [cbn [tick c_hist]; lia|].
  rewrite roll_up_if_due_hsum. cbn [c_hist tick]. rewrite hsum_app, hsum_cons, hsum_nil. cbn [e_d]. lia.
Qed.

Lemma run_cons o ops c : run (o :: ops) c = run ops (step c o). Proof. reflexivity. Qed.

Lemma run_sums : forall ops c,
  c_value (run ops c) = c_value c + ops_sum ops /\ hsum (c_hist (run ops c)) = hsum (c_hist c) + ops_sum ops.
Proof.
  induction ops as [|o ops IH]; intros c; [cbn; lia|].
  rewrite run_cons. destruct (IH (step c o)) as [-> ->].
  destruct o as [d t n|]; cbn [step ops_sum fold_right]; fold (ops_sum ops).
  - rewrite cadd_value, cadd_hsum. lia.
  - cbn [tick c_value c_hist]. lia.
Qed.

Theorem value_eq_history_sum : forall ops c, consistent c -> consistent (run ops c).
Proof. unfold consistent. intros ops c H. destruct (run_sums ops c) as [-> ->]. lia. Qed.

Theorem value_eq_increments : forall ops c, c_value (run ops c) = c_value c + ops_sum ops.
Proof. apply run_sums. Qed.

Lemma load_pb_value dst same v h now :
  c_value (load_pb dst same v h now) = if same then Z.max (c_value dst) v else c_value dst.
Proof.
  unfold load_pb. destruct same; cbn [negb]; [|reflexivity].
  cbn [c_value]. rewrite cadd_value. cbn [c_value tick]. lia.
Qed.

Theorem load_monotone : forall dst same v h now, c_value dst <= c_value (load_pb dst same v h now).
Proof. intros. rewrite load_pb_value. destruct same; lia. Qed.

Theorem load_lossless : forall dst v h now,
  v = hsum h -> c_value dst <= v ->
  let c := load_pb dst true v h now in c_value c = v /\ c_hist c = h /\ consistent c.
Proof.
  intros dst v h now Hv Hle c. subst c. unfold consistent. rewrite load_pb_value.
  unfold load_pb. cbn [negb c_hist]. repeat split; lia.
Qed.

Theorem dump_exact : forall c, snd (dump c) = (c_value c, c_hist c) /\ c_value (fst (dump c)) = c_value c /\ c_hist (fst (dump c)) = c_hist c.
Proof. repeat split. Qed.

Lemma hsum_nonneg h : nonneg h -> 0 <= hsum h.
Proof. induction 1; rewrite ?hsum_nil, ?hsum_cons; lia. Qed.

Lemma hsum_cut n h : hsum h = hsum (firstn n h) + hsum (skipn n h).
Proof. now rewrite <- hsum_app, firstn_skipn. Qed.

Lemma nonneg_cut n h : nonneg h -> nonneg (firstn n h) /\ nonneg (skipn n h).
Proof. intros H. apply Forall_app. now rewrite firstn_skipn. Qed.

Lemma sum_range_le h i j : nonneg h -> 0 <= sum_range h i j <= hsum h.
Proof.
  intros H. unfold sum_range.
  destruct (nonneg_cut (Z.to_nat i) h H) as [Ha Hs].
  destruct (nonneg_cut (Z.to_nat (j - i)) _ Hs) as [Hb Hc].
  rewrite (hsum_cut (Z.to_nat i) h), (hsum_cut (Z.to_nat (j - i)) (skipn _ h)).
  apply hsum_nonneg in Ha, Hb, Hc. lia.
Qed.

Theorem window_le_total : forall h t1 t2, nonneg h -> 0 <= delta_between h t1 t2 <= hsum h.
Proof. intros. unfold delta_between. now apply sum_range_le. Qed.

Lemma rank_le4 l : rank l <= 4.
Proof. unfold rank. repeat (destruct (_ =? _)); lia. Qed.

Lemma rank_id a : 0 <= rank a -> rank a = a.
Proof.
  unfold rank. repeat (destruct (a =? _) eqn:E; [apply Z.eqb_eq in E; now subst a | clear E]). lia.
Qed.

Lemma rank_inj a b : rank a = rank b -> 0 <= rank a -> a = b.
Proof. intros E H. rewrite <- (rank_id a H), <- (rank_id b) by lia. exact E. Qed.

Lemma gran_succ r : 0 <= r < 4 -> (gran_ns r | gran_ns (Z.succ r)).
Proof.
  intros H. assert (E : r = 0 \/ r = 1 \/ r = 2 \/ r = 3) by lia.
  destruct E as [-> | [-> | [-> | ->]]]; [exists 1000 | exists 60 | exists 60 | exists 24]; reflexivity.
Qed.

Lemma gran_divide a b : 0 <= a -> a <= b -> b <= 4 -> (gran_ns a | gran_ns b).
Proof.
  intros Ha Hab. revert b Hab. apply (Z.le_ind (fun b => b <= 4 -> (gran_ns a | gran_ns b))).
  - now intros x y ->.
  - intros _. apply Z.divide_refl.
  - intros m Hm IH H4. apply Z.divide_trans with (gran_ns m); [apply IH | apply gran_succ]; lia.
Qed.

Lemma gran_ms_divide r : (MS | gran_ns r).
Proof. unfold gran_ns. repeat (destruct (_ =? _)); (apply Z.mod_divide; [discriminate | reflexivity]). Qed.

Lemma gran_pos r : 0 < gran_ns r.
Proof. unfold gran_ns. repeat (destruct (_ =? _)); reflexivity. Qed.

Lemma truncate_le t d : truncate_ms t d <= t.
Proof.
  unfold truncate_ms. destruct (Z.leb_spec d 0); [lia|].
  pose proof MS_pos.
  assert (0 <= (t * MS + C19_UnixToInternalSec * C19_SecondNs) mod d) by (apply Z.mod_pos_bound; lia).
  apply Z.div_le_upper_bound; lia.
Qed.

(* what the order proof needs from Truncate at granularity G *)
Definition trunc_spec (G : Z) : Prop := forall t,
  (G | truncate_ms t G * MS) /\ (forall a, (G | a * MS) -> a <= t -> a <= truncate_ms t G).

(* G = g ms dividing the distance from Go's zero time to the Unix epoch: Truncate is t - t mod g on Unix milliseconds *)
Lemma trunc_spec_gen G : 0 < G -> (MS | G) -> (G | C19_UnixToInternalSec * C19_SecondNs) -> trunc_spec G.
Proof.
  intros HG [g ->] [c Hc] t. pose proof MS_pos as HM. assert (Hg : 0 < g) by nia.
  assert (E : truncate_ms t (g * MS) = t - t mod g).
  { unfold truncate_ms. destruct (Z.leb_spec (g * MS) 0) as [Hn|_]; [lia|].
    rewrite Hc, Z_mod_plus_full, Z.mul_mod_distr_r by lia.
    replace (t * MS - t mod g * MS) with ((t - t mod g) * MS) by ring.
    apply Z.div_mul. lia. }
  rewrite E. pose proof (Z.div_mod t g ltac:(lia)) as Hdm. pose proof (Z.mod_pos_bound t g Hg) as Hb.
  split.
  - exists (t / g). nia.
  - intros a Ha Hle. apply Z.mul_divide_cancel_r in Ha; [|lia]. destruct Ha as [q ->].
    assert (q <= t / g) by (apply Z.div_le_lower_bound; lia).
    nia.
Qed.

(* that distance is 719162 days (year 1 to 1970), and every granularity divides the day *)
Lemma trunc_spec_gran r : 1 <= r <= 4 -> trunc_spec (gran_ns r).
Proof.
  intros Hr. apply trunc_spec_gen; [apply gran_pos | apply gran_ms_divide |].
  apply Z.divide_trans with (gran_ns 4); [apply gran_divide; lia | exists 719162; reflexivity].
Qed.

Lemma pass_bounded from to dur trunc now hi : forall h last,
  Forall (fun e => e_t e <= hi) h -> (match last with None => True | Some l => e_t l <= hi end) ->
  Forall (fun e => e_t e <= hi) (pass from to dur trunc now last h).
Proof.
  induction h as [|e r IH]; intros last Hh Hl; cbn [pass].
  - destruct last; cbn [flush]; auto.
  - inversion Hh as [|? ? He Hr]; subst.
    pose proof (truncate_le (e_t e) trunc) as Ht.
    destruct (negb (e_l e =? from) || (now - e_t e * MS <=? dur)).
    + destruct last; cbn [flush app]; repeat constructor; auto.
    + (* the new pending entry carries a truncated, hence not later, timestamp *)
      destruct last as [l|].
      * destruct (e_t l =? truncate_ms (e_t e) trunc).
        -- apply IH; [exact Hr | cbn [e_t]; lia].
        -- constructor; [exact Hl|]. apply IH; [exact Hr | cbn [e_t]; lia].
      * apply IH; [exact Hr | cbn [e_t]; lia].
Qed.

Lemma chain_cons lo rk e r :
  lo <= e_t e -> 0 <= rank (e_l e) <= rk -> aligned e -> chain (e_t e) (rank (e_l e)) r -> chain lo rk (e :: r).
Proof. intros H1 H2 H3 H4. exact (conj H1 (conj H2 (conj H3 H4))). Qed.

(* One pass from rank k to rank k' (the same, or the next coarser) keeps the invariant.  The output is built while the
   input chain is read: at each point the rest of the input is a chain from (lo_in, rk_in), and what has been emitted
   can be continued by any chain from (lo_out, rk_out). *)
Section PassInv.
  Variables (from to dur trunc now k k' : Z).
  Hypothesis Hfrom : rank from = k.
  Hypothesis Hto : rank to = k'.
  Hypothesis Htr : trunc = gran_ns k'.
  Hypothesis Hk : 0 <= k <= k' /\ k' <= k + 1 /\ 1 <= k'.

  (* no merged entry is pending; about the last emitted entry (time lo, rank rk) one of:
     - it is coarse and aligned enough for a merged entry to follow it;
     - it is young: so is everything after it, nothing more is rolled up;
     - it is finer than [from]: so is everything after it, nothing more is rolled up *)
  Definition unheld (lo rk : Z) : Prop :=
    (k' <= rk /\ (trunc | lo * MS)) \/ (now - lo * MS <= dur) \/ rk < k.

  (* a merged entry l is pending: whatever is still to come is not before it and has at most the rank k of the entries
     rolled into it; l itself may be emitted after (lo_out, rk_out) *)
  Definition held (l : entry) (lo_in rk_in lo_out rk_out : Z) : Prop :=
    (e_l l = to /\ (trunc | e_t l * MS)) /\ (e_t l <= lo_in /\ rk_in <= k) /\ (lo_out <= e_t l /\ k' <= rk_out).

  Lemma emit_held l lo_in rk_in lo_out rk_out tl :
    held l lo_in rk_in lo_out rk_out -> chain (e_t l) k' tl -> chain lo_out rk_out (l :: tl).
  Proof.
    intros ((Hl & Hd) & _ & Hlo & Hrk) Hc.
    assert (Hr : rank (e_l l) = k') by (rewrite Hl; exact Hto).
    apply chain_cons; [exact Hlo | lia | unfold aligned; rewrite Hr, <- Htr; exact Hd | rewrite Hr; exact Hc].
  Qed.

  Lemma trunc_ok : trunc_spec trunc.
  Proof. pose proof (rank_le4 to). rewrite Htr. apply trunc_spec_gran. lia. Qed.

  Lemma kept_unheld e : 0 <= rank (e_l e) -> aligned e ->
    negb (e_l e =? from) || (now - e_t e * MS <=? dur) = true -> unheld (e_t e) (rank (e_l e)).
  Proof.
    intros Hrk Hal Hcond. apply orb_true_iff in Hcond. destruct Hcond as [Hlab|Hy].
    - apply negb_true_iff, Z.eqb_neq in Hlab.
      assert (rank (e_l e) <> k).
      { intros E. apply Hlab. apply rank_inj; [rewrite E, Hfrom; reflexivity | exact Hrk]. }
      destruct (Z_lt_le_dec (rank (e_l e)) k) as [Hlt|Hge].
      + right. right. exact Hlt.
      + left. split; [lia|]. rewrite Htr.
        apply Z.divide_trans with (gran_ns (rank (e_l e))); [|exact Hal].
        apply gran_divide; [lia | lia | apply rank_le4].
    - right. left. apply Z.leb_le in Hy. exact Hy.
  Qed.

  (* e of rank k rolled up: the fresh pending entry may be emitted after anything not after its time of rank >= k' *)
  Lemma held_fresh e d lo' rk' : rank (e_l e) = k -> lo' <= truncate_ms (e_t e) trunc -> k' <= rk' ->
    held (mkE (truncate_ms (e_t e) trunc) d to) (e_t e) (rank (e_l e)) lo' rk'.
  Proof.
    intros Hrk Hlo' Hrk'. pose proof (truncate_le (e_t e) trunc). destruct (trunc_ok (e_t e)) as [Hd _].
    split; [split; [reflexivity | exact Hd] | cbn [e_t]; lia].
  Qed.

  Lemma pass_chain : forall h last lo_in rk_in lo_out rk_out,
    chain lo_in rk_in h ->
    match last with
    | None => lo_out = lo_in /\ rk_out = rk_in /\ unheld lo_in rk_in
    | Some l => held l lo_in rk_in lo_out rk_out
    end ->
    chain lo_out rk_out (pass from to dur trunc now last h).
  Proof.
    pose proof MS_pos as HM.
    induction h as [|e r IH]; intros last lo_in rk_in lo_out rk_out Hc Hl; cbn [pass].
    - destruct last as [l|]; [|exact I]. apply (emit_held l _ _ _ _ [] Hl). exact I.
    - destruct Hc as (Hlo & Hrk & Hal & Hr).
      destruct (negb (e_l e =? from) || (now - e_t e * MS <=? dur)) eqn:Hcond.
      + (* e is kept *)
        pose proof (IH None _ _ _ _ Hr (conj eq_refl (conj eq_refl (kept_unheld e (proj1 Hrk) Hal Hcond)))) as IH'.
        destruct last as [l|]; cbn [flush app].
        * pose proof Hl as (_ & (Hin & Hrin) & _). apply (emit_held l _ _ _ _ _ Hl).
          apply chain_cons; [lia | lia | exact Hal | exact IH'].
        * destruct Hl as (-> & -> & _). apply chain_cons; [lia | lia | exact Hal | exact IH'].
      + (* e is rolled up into a pending entry at time t *)
        apply orb_false_iff in Hcond. destruct Hcond as [Hlab Hold].
        apply negb_false_iff, Z.eqb_eq in Hlab. apply Z.leb_gt in Hold.
        assert (Hrke : rank (e_l e) = k) by (rewrite Hlab; exact Hfrom).
        destruct (trunc_ok (e_t e)) as (_ & Ht3).
        set (t := truncate_ms (e_t e) trunc) in *.
        destruct last as [l|].
        * pose proof Hl as ((_ & Hd) & (Hin & _) & (Hout & Hrout)).
          assert (Hlt : e_t l <= t) by (apply Ht3; [exact Hd | lia]).
          destruct (Z.eqb_spec (e_t l) t) as [Heq|Hne].
          -- apply (IH _ _ _ _ _ Hr), held_fresh; [exact Hrke | lia | exact Hrout].
          -- apply (emit_held l _ _ _ _ _ Hl), (IH _ _ _ _ _ Hr), held_fresh; [exact Hrke | exact Hlt | lia].
        * (* the last emitted entry is neither young nor finer than [from]: e, not before it, would have been kept *)
          destruct Hl as (-> & -> & [[Hs1 Hs2]|[Hs|Hs]]); [|exfalso; nia | exfalso; lia].
          apply (IH _ _ _ _ _ Hr), held_fresh; [exact Hrke | apply Ht3; [exact Hs2 | lia] | exact Hs1].
  Qed.

  (* [lo] of wf_history is a multiple of a day, hence of every granularity: no truncation of a later timestamp falls
     below it, which is what lets a merged entry come first in the output *)
  Lemma do_roll_up_wf hi h : wf_history hi h -> wf_history hi (do_roll_up from to dur trunc now h).
  Proof.
    intros (lo & Hd & Hle & Hc & Hb). exists lo. split; [exact Hd|]. split; [exact Hle|]. split.
    - apply (pass_chain h None lo 4 lo 4 Hc).
      split; [reflexivity|]. split; [reflexivity|]. left. pose proof (rank_le4 to). split; [lia|]. rewrite Htr.
      apply Z.divide_trans with (gran_ns 4); [apply gran_divide; lia | exact Hd].
    - apply pass_bounded; [exact Hb | exact I].
  Qed.
End PassInv.

Lemma chain_sorted : forall h lo rk, chain lo rk h -> sorted_from lo h.
Proof. induction h as [|e r IH]; intros lo rk H; cbn in *; [exact I|]. destruct H as (H1 & _ & _ & H4). split; [exact H1 | eapply IH; exact H4]. Qed.

Lemma wf_sorted hi h : wf_history hi h -> sorted h.
Proof.
  intros (lo & _ & _ & Hc & _). destruct h as [|e r]; [exact I|].
  cbn in Hc. destruct Hc as (_ & _ & _ & Hc). cbn. eapply chain_sorted; exact Hc.
Qed.

Lemma wf_nil hi : wf_history hi [].
Proof.
  (* lower bound: the start of the day of hi, which is day-aligned and not above hi *)
  exists (truncate_ms hi (gran_ns 4)). split; [apply (trunc_spec_gran 4); lia|].
  split; [apply truncate_le|]. split; [exact I | constructor].
Qed.

Lemma wf_weaken hi hi' h : wf_history hi h -> hi <= hi' -> wf_history hi' h.
Proof.
  intros (lo & H1 & H2 & H3 & H4) Hle. exists lo. repeat split; try assumption; try lia.
  eapply Forall_impl; [|exact H4]. cbn. intros; lia.
Qed.

Lemma pass_wf from to dur now hi h :
  0 <= rank from <= rank to /\ rank to <= rank from + 1 /\ 1 <= rank to ->
  wf_history hi h -> wf_history hi (do_roll_up from to dur (gran_ns (rank to)) now h).
Proof. intros Hk. now apply (do_roll_up_wf from to dur _ now (rank from) (rank to)). Qed.

(* each of the eight passes goes from a rank to the same or the next coarser one and truncates to the granularity of
   its target *)
Theorem rollup_wf : forall now hi h, wf_history hi h -> wf_history hi (roll_up now h).
Proof.
  intros now hi h H. unfold roll_up.
  do 8 (apply pass_wf; [cbn; lia|]). exact H.
Qed.

Theorem rollup_sorted : forall now hi h, wf_history hi h -> sorted (roll_up now h).
Proof. intros. eapply wf_sorted, rollup_wf; eassumption. Qed.

Lemma chain_app_fresh : forall h lo rk t d,
  chain lo rk h -> Forall (fun e => e_t e <= t) h -> lo <= t -> 0 <= rk ->
  chain lo rk (h ++ [mkE t d C19_LabelNoRollUp]).
Proof.
  induction h as [|e r IH]; intros lo rk t d Hc Hb Hlo Hrk; cbn [app].
  - apply chain_cons; [cbn; lia | cbn; lia | exists t; reflexivity | exact I].
  - destruct Hc as (H1 & H2 & H3 & H4). inversion Hb; subst.
    apply chain_cons; [exact H1 | exact H2 | exact H3 | apply IH; [exact H4 | assumption | lia | lia]].
Qed.

Lemma wf_app_fresh t h d : wf_history t h -> wf_history t (h ++ [mkE t d C19_LabelNoRollUp]).
Proof.
  intros (lo & H1 & H2 & H3 & H4). exists lo. split; [exact H1|]. split; [exact H2|]. split.
  - apply chain_app_fresh; [exact H3 | exact H4 | exact H2 | lia].
  - apply Forall_app. split; [exact H4 | repeat constructor; cbn; lia].
Qed.

Lemma cadd_wf c d t now hi :
  wf_history hi (c_hist c) -> hi <= unix_milli t -> wf_history (unix_milli t) (c_hist (cadd c d t now)).
Proof.
  intros H Hle. apply wf_weaken with (hi' := unix_milli t) in H; [|exact Hle].
  unfold cadd. destruct (d =? 0); [exact H|].
  unfold roll_up_if_due. cbn [c_op c_hist c_value tick].
  destruct (_ =? 0); cbn [c_hist]; [apply rollup_wf|]; apply wf_app_fresh, H.
Qed.

Theorem history_wf : forall ops c hi,
  wf_history hi (c_hist c) -> mono_adds hi ops -> exists hi', wf_history hi' (c_hist (run ops c)).
Proof.
  induction ops as [|o ops IH]; intros c hi H Hm; [exists hi; exact H|].
  rewrite run_cons. destruct o as [d t n|]; cbn [mono_adds step] in *.
  - destruct Hm as [H1 H2]. eapply IH; [|exact H2]. apply cadd_wf with hi; assumption.
  - eapply IH; [|exact Hm]. exact H.
Qed.

Theorem history_sorted : forall ops op0 hi, mono_adds hi ops -> sorted (c_hist (run ops (mkC 0 [] op0))).
Proof.
  intros ops op0 hi Hm. destruct (history_wf ops (mkC 0 [] op0) hi (wf_nil hi) Hm) as [hi' H].
  eapply wf_sorted; exact H.
Qed.

Lemma bsearch_spec : forall fuel f i j p,
  i <= p <= j -> (forall x, i <= x < p -> f x = false) -> (forall x, p <= x < j -> f x = true) ->
  j - i <= Z.of_nat fuel -> bsearch fuel f i j = p.
Proof.
  induction fuel as [|k IH]; intros f i j p Hp Hlo Hhi Hf; cbn [bsearch].
  - lia.
  - destruct (Z.ltb_spec i j) as [Hij|Hij]; [|lia].
    assert (Hm : i <= (i + j) / 2 < j).
    { split; [apply Z.div_le_lower_bound; lia | apply Z.div_lt_upper_bound; lia]. }
    set (m := (i + j) / 2) in *. clearbody m.
    destruct (f m) eqn:Ef.
    + assert (p <= m).
      { destruct (Z_lt_le_dec m p) as [Hlt|]; [|lia]. rewrite Hlo in Ef by lia. discriminate. }
      apply IH; [lia | intros x Hx; apply Hlo; lia | intros x Hx; apply Hhi; lia | lia].
    + assert (m < p).
      { destruct (Z_lt_le_dec m p) as [|Hge]; [lia|]. rewrite Hhi in Ef by lia. discriminate. }
      apply IH; [lia | intros x Hx; apply Hlo; lia | intros x Hx; apply Hhi; lia | lia].
Qed.

Lemma sorted_from_lower : forall h lo, sorted_from lo h -> Forall (fun e => lo <= e_t e) h.
Proof.
  induction h as [|e r IH]; intros lo H; [constructor|]. cbn in H. destruct H as [H1 H2].
  constructor; [exact H1|]. eapply Forall_impl; [|apply IH; exact H2]. cbn. intros; lia.
Qed.

Lemma sorted_from_weaken : forall h lo lo', sorted_from lo h -> lo' <= lo -> sorted_from lo' h.
Proof. destruct h as [|e r]; intros lo lo' H Hle; [exact I|]. cbn in *. split; [lia|tauto]. Qed.

Lemma sorted_split : forall h lo t, sorted_from lo h ->
  exists a b, h = a ++ b /\ Forall (fun e => e_t e * MS <= t) a /\ Forall (fun e => t < e_t e * MS) b /\ sorted_from lo b.
Proof.
  induction h as [|e r IH]; intros lo t H.
  - exists [], []. repeat split; constructor.
  - cbn in H. destruct H as [H1 H2]. destruct (Z_le_gt_dec (e_t e * MS) t) as [Hle|Hgt].
    + destruct (IH (e_t e) t H2) as (a & b & E & Ha & Hb & Hs). exists (e :: a), b.
      split; [cbn; now rewrite E|]. split; [constructor; assumption|]. split; [exact Hb|].
      apply sorted_from_weaken with (e_t e); assumption.
    + exists [], (e :: r). pose proof MS_pos. split; [reflexivity|]. split; [constructor|]. split; [|cbn; tauto].
      constructor; [lia|]. eapply Forall_impl; [|apply sorted_from_lower; exact H2]. cbn. intros; nia.
Qed.

Lemma search_after_split a b t :
  Forall (fun e => e_t e * MS <= t) a -> Forall (fun e => t < e_t e * MS) b ->
  search_after (a ++ b) t = Z.of_nat (length a).
Proof.
  intros Ha Hb. unfold search_after. apply bsearch_spec.
  - rewrite app_length. lia.
  - intros x Hx. unfold after_at. rewrite nth_error_app1 by lia.
    destruct (nth_error a (Z.to_nat x)) eqn:En; [|apply nth_error_None in En; lia].
    apply nth_error_In in En. rewrite Forall_forall in Ha. specialize (Ha _ En). apply Z.ltb_ge. exact Ha.
  - intros x Hx. unfold after_at. rewrite nth_error_app2 by lia.
    destruct (nth_error b (Z.to_nat x - length a)) eqn:En; [|reflexivity].
    apply nth_error_In in En. rewrite Forall_forall in Hb. specialize (Hb _ En). apply Z.ltb_lt. exact Hb.
  - lia.
Qed.

Lemma skipn_length_app {A} (a b : list A) : skipn (length a) (a ++ b) = b.
Proof. induction a; cbn; auto. Qed.
Lemma firstn_length_app {A} (a b : list A) : firstn (length a) (a ++ b) = a.
Proof. induction a; cbn; [now destruct b | now f_equal]. Qed.

Lemma filter_none {A} (f : A -> bool) l : Forall (fun x => f x = false) l -> filter f l = [].
Proof. induction 1 as [|x l Hx _ IH]; cbn; [reflexivity | now rewrite Hx]. Qed.
Lemma filter_all {A} (f : A -> bool) l : Forall (fun x => f x = true) l -> filter f l = l.
Proof. induction 1 as [|x l Hx _ IH]; cbn; [reflexivity | now rewrite Hx, IH]. Qed.

Lemma window_is_range_sum_from : forall h lo t1 t2, sorted_from lo h -> t1 <= t2 ->
  delta_between h t1 t2 = hsum (filter (in_window t1 t2) h).
Proof.
  intros h lo t1 t2 Hs Ht.
  destruct (sorted_split h lo t1 Hs) as (a & b1 & E1 & Ha & Hb1 & Hs1).
  destruct (sorted_split b1 lo t2 Hs1) as (c & b & E2 & Hc & Hb & _).
  subst b1. subst h.
  assert (Hc1 : Forall (fun e => t1 < e_t e * MS) c) by (apply Forall_app in Hb1; tauto).
  unfold delta_between.
  rewrite (search_after_split a (c ++ b) t1 Ha Hb1).
  rewrite app_assoc.
  rewrite (search_after_split (a ++ c) b t2).
  2:{ apply Forall_app. split; [eapply Forall_impl; [|exact Ha]; cbn; intros; lia | exact Hc]. }
  2:{ exact Hb. }
  unfold sum_range. rewrite app_length.
  replace (Z.to_nat (Z.of_nat (length a + length c) - Z.of_nat (length a))) with (length c) by lia.
  rewrite Nat2Z.id, <- app_assoc, skipn_length_app, firstn_length_app.
  rewrite !filter_app.
  rewrite (filter_none _ a), (filter_all _ c), (filter_none _ b); [now rewrite app_nil_r| | |].
  - eapply Forall_impl; [|exact Hb]. cbn. intros e He. unfold in_window. lia.
  - eapply Forall_impl; [|exact (Forall_and Hc1 Hc)]. cbn. intros e He. unfold in_window. lia.
  - eapply Forall_impl; [|exact Ha]. cbn. intros e He. unfold in_window. lia.
Qed.

Theorem window_is_range_sum : forall h t1 t2, sorted h -> t1 <= t2 ->
  delta_between h t1 t2 = hsum (filter (in_window t1 t2) h).
Proof.
  intros h t1 t2 Hs Ht. destruct h as [|e r].
  - reflexivity.
  - apply window_is_range_sum_from with (e_t e); [|exact Ht]. cbn. split; [lia | exact Hs].
Qed.

Definition ex_T : Z := 1257894000 * C19_SecondNs.           (* 2009-11-10 23:00:00 UTC *)
Definition ex_ops : list cop :=
  [OpAdd 5 ex_T ex_T; OpAdd 7 (ex_T + 300000) (ex_T + 300000); OpAdd 11 (ex_T + 1200 * MS) (ex_T + 1200 * MS);
   OpTick; OpAdd 13 (ex_T + 10 * C19_DayNs + 1200 * MS) (ex_T + 10 * C19_DayNs + 2 * C19_SecondNs)].

(* three increments inside 1.2 s, then one ten days later whose operation count (1000) triggers the roll-up, which
   really merges *)
Example ex_history :
  mono_adds 0 ex_ops /\
  run ex_ops (mkC 0 [] 995) =
    mkC 36 [mkE 1257811200000 23 C19_LabelDay; mkE 1258758001200 13 C19_LabelNoRollUp] 1000 /\
  consistent (mkC 0 [] 995).
Proof.
  split; [|split; [vm_compute; reflexivity | reflexivity]].
  cbn [mono_adds ex_ops]. vm_compute. repeat split; discriminate.
Qed.

(* a well-formed history with all five labels on which rollUp is not the identity *)
Example ex_wf :
  let h := [mkE 1257811200000 23 C19_LabelDay; mkE 1258671600000 4 C19_LabelHour; mkE 1258757940000 2 C19_LabelMinute;
            mkE 1258758000000 1 C19_LabelMinute; mkE 1258758001000 9 C19_LabelSecond; mkE 1258758001200 13 C19_LabelNoRollUp] in
  wf_history 1258758001200 h /\ sorted h /\ roll_up (1258758301 * C19_SecondNs) h <> h /\
  hsum (roll_up (1258758301 * C19_SecondNs) h) = hsum h.
Proof.
  cbv zeta. split; [|split; [cbn; lia | split; [vm_compute; discriminate | apply rollup_sum]]].
  exists 0. split; [exists 0; reflexivity|]. split; [lia|]. split.
  - apply chain_cons; [now vm_compute | now vm_compute | exists 14558; reflexivity |].
    apply chain_cons; [now vm_compute | now vm_compute | exists 349631; reflexivity |].
    apply chain_cons; [now vm_compute | now vm_compute | exists 20979299; reflexivity |].
    apply chain_cons; [now vm_compute | now vm_compute | exists 20979300; reflexivity |].
    apply chain_cons; [now vm_compute | now vm_compute | exists 1258758001; reflexivity |].
    apply chain_cons; [now vm_compute | now vm_compute | exists 1258758001200; reflexivity |].
    exact I.
  - repeat constructor; cbn; lia.
Qed.

(* the window is (t1, t2]: the entry at t1 is outside, two entries at t2 are both inside *)
Example ex_window :
  let h := [mkE 1000 5 C19_LabelSecond; mkE 2000 7 C19_LabelNoRollUp; mkE 2000 1 C19_LabelNoRollUp; mkE 3500 9 C19_LabelNoRollUp] in
  nonneg h /\ delta_between h (1000 * MS) (2000 * MS) = 8 /\ delta_between h (1000 * MS - 1) (3499 * MS) = 13 /\ hsum h = 22.
Proof. cbv zeta. split; [repeat constructor; cbn; lia | repeat apply conj; vm_compute; reflexivity]. Qed.

Example ex_window_range :
  let h := [mkE 1000 5 C19_LabelSecond; mkE 2000 7 C19_LabelNoRollUp; mkE 2000 1 C19_LabelNoRollUp; mkE 3500 9 C19_LabelNoRollUp] in
  sorted h /\ filter (in_window (1000 * MS) (2000 * MS)) h = [mkE 2000 7 C19_LabelNoRollUp; mkE 2000 1 C19_LabelNoRollUp].
Proof. cbv zeta. split; [cbn; lia | vm_compute; reflexivity]. Qed.

(* the regenerated constants are the documented ones (DESIGN 7/C19: 2 s / 120 s / 120 min / 8 d; counter.go:
   rollUpInterval = 1000 and "accurate hourly data for at least 7 days"); a changed constant breaks this obligation *)
Lemma consts_ok :
  C19_RollUpInterval = 1000 /\
  C19_RollUpToSecondNs = 2 * C19_SecondNs /\ C19_RollUpSecondToMinuteNs = 120 * C19_SecondNs /\
  C19_RollUpMinuteToHourNs = 120 * C19_MinuteNs /\ C19_RollUpHourToDayNs = 8 * C19_DayNs /\
  7 * C19_DayNs + C19_DayNs <= C19_RollUpHourToDayNs /\
  [C19_LabelNoRollUp; C19_LabelSecond; C19_LabelMinute; C19_LabelHour; C19_LabelDay] = [0; 1; 2; 3; 4] /\
  C19_QuotaBytesPerMegabyte = 2 ^ 20 /\ C19_QuotaHoursPerDay * C19_HourNs = C19_DayNs.
Proof. repeat apply conj; vm_compute; try reflexivity; discriminate. Qed.
