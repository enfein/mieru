(* C07 — proofs about model/Discover.v.  tryState's four passes are one loop ([loop]) over one list
   ([candidates]): the cached then the registry candidates whose hint matches, then (unless hints are
   mandatory) those whose hint does not; the user returned is the first candidate that authenticates
   ([try_state_hit]). *)
From Coq Require Import List NArith Bool Lia.
From M Require Import model.Discover.
Import ListNotations.
Open Scope N_scope.

Lemma nodup_snoc {A} (l : list A) x : NoDup l -> ~ In x l -> NoDup (l ++ [x]).
Proof.
  intros Hl Hx. apply (proj2 (NoDup_Add (Add_app x l []))). rewrite app_nil_r. split; assumption.
Qed.

Lemma nodup_app_l {A} (a b : list A) : NoDup (a ++ b) -> NoDup a.
Proof.
  induction a as [|x a IH]; intros H; [constructor|].
  cbn [app] in H. inversion H as [|? ? Hx H']; subst. constructor.
  - intros Hin. apply Hx. apply in_or_app. left. exact Hin.
  - exact (IH H').
Qed.

Lemma find_app {A} (p : A -> bool) (a b : list A) :
  find p (a ++ b) = match find p a with Some x => Some x | None => find p b end.
Proof. induction a as [|x a IH]; cbn [app find]; [reflexivity|]. destruct (p x); [reflexivity|exact IH]. Qed.

Section Proofs.
  Variable U : Type.
  Variables hint auth : U -> bool.

  Notation ubi := (user_by_id U).
  Notation pc := (phase_cached U hint auth).
  Notation pr := (phase_registry U hint auth).
  Notation ts := (try_state U hint auth).

  Lemma index_from_spec : forall us s i u,
    In (i, u) (index_from U s us) <-> exists k, i = s + N.of_nat k /\ nth_error us k = Some u.
  Proof.
    induction us as [|u0 r IH]; intros s i u; cbn [index_from In].
    - split; [tauto|]. intros [[|k] [_ H]]; discriminate.
    - rewrite IH. split.
      + intros [H | [k [E H]]].
        * inversion H; subst. exists 0%nat. split; [lia|reflexivity].
        * exists (S k). split; [lia|exact H].
      + intros [[|k] [E H]].
        * left. inversion H; subst. f_equal. lia.
        * right. exists k. split; [lia|exact H].
  Qed.

  Lemma ubi_spec : forall users i u,
    ubi users i = Some u <-> exists k, i = 1 + N.of_nat k /\ nth_error users k = Some u.
  Proof.
    intros users i u. unfold user_by_id.
    destruct (N.eqb_spec i 0) as [-> | Hne]; cbn [orb].
    - split; [discriminate|]. intros [k [H _]]. lia.
    - destruct (N.ltb_spec (N.of_nat (length users)) i) as [Hlt|Hge].
      + split; [discriminate|]. intros [k [-> H]].
        assert (Hl : (k < length users)%nat) by (apply nth_error_Some; congruence). lia.
      + split.
        * intros H. exists (N.to_nat (i - 1)). split; [lia|exact H].
        * intros [k [-> H]]. replace (N.to_nat (1 + N.of_nat k - 1)) with k by lia. exact H.
  Qed.

  (* index_ubi and ubi_in use neither hint nor auth; their closed statements take both *)
  Lemma index_ubi : forall users i u, In (i, u) (index_from U 1 users) <-> ubi users i = Some u.
  Proof using hint auth. intros. rewrite index_from_spec, ubi_spec. reflexivity. Qed.

  Lemma index_nodup : forall us s, NoDup (map fst (index_from U s us)).
  Proof.
    induction us as [|u r IH]; intros s; cbn [index_from map fst]; constructor.
    - rewrite in_map_iff. intros [[j v] [Hj Hin]]. cbn in Hj. subst j.
      apply index_from_spec in Hin. destruct Hin as [k [E _]]. lia.
    - apply IH.
  Qed.

  Lemma ubi_in : forall users i u, ubi users i = Some u -> In u users.
  Proof using hint auth.
    intros users i u H. apply ubi_spec in H. destruct H as [k [_ H]]. exact (nth_error_In _ _ H).
  Qed.

  Lemma ubi_range : forall users i u, ubi users i = Some u -> 1 <= i /\ i <= N.of_nat (length users).
  Proof.
    intros users i u H. apply ubi_spec in H. destruct H as [k [-> H]].
    assert (Hl : (k < length users)%nat) by (apply nth_error_Some; congruence). lia.
  Qed.

  Lemma wa_spec : forall att i, was_attempted att i = true <-> In i att.
  Proof.
    intros. unfold was_attempted. rewrite existsb_exists. split.
    - intros [x [Hx He]]. apply N.eqb_eq in He. subst. exact Hx.
    - intros H. exists i. split; [exact H|apply N.eqb_refl].
  Qed.

  Lemma wa_false : forall att i, was_attempted att i = false <-> ~ In i att.
  Proof. intros. rewrite <- wa_spec. destruct (was_attempted att i); split; congruence. Qed.

  Lemma mark_incl : forall att c i, In i (mark att c) -> In i att \/ i = c.
  Proof.
    intros att c i. unfold mark. destruct (_ && _); [|tauto].
    rewrite in_app_iff. cbn. intuition.
  Qed.

  Lemma mark_fresh : forall full att c, N.of_nat (length full) <= att_cap ->
    NoDup att -> incl att full -> In c full -> ~ In c att -> mark att c = att ++ [c].
  Proof.
    intros full att c Hcap Hnd Hinc Hc Hw. unfold mark.
    assert (Hl : (length (att ++ [c]) <= length full)%nat).
    { apply NoDup_incl_length; [exact (nodup_snoc _ _ Hnd Hw)|].
      apply incl_app; [exact Hinc|]. intros x [<-|[]]. exact Hc. }
    rewrite app_length in Hl. cbn [length] in Hl.
    apply wa_false in Hw. rewrite Hw. cbn [negb]. rewrite andb_true_r.
    destruct (N.ltb_spec (N.of_nat (length att)) att_cap); [reflexivity|lia].
  Qed.

  Definition origin_hint (o : origin) : bool :=
    match o with OCachedHint | ORegistryHint => true | _ => false end.

  Definition is_cached (o : origin) : bool :=
    match o with OCachedHint | OCachedFallback => true | _ => false end.

  Definition cid (c : N * U * origin) : N := fst (fst c).

  (* the body the four passes share; only a cached trial is entered into the attempted array *)
  Fixpoint loop (cs : list (N * U * origin)) (att tried : list N) : result U :=
    match cs with
    | [] => {| r_hit := None; r_tried := tried |}
    | (i, u, o) :: rest =>
      if was_attempted att i then loop rest att tried
      else if auth u then {| r_hit := Some (i, u, o); r_tried := tried ++ [i] |}
      else loop rest (if is_cached o then mark att i else att) (tried ++ [i])
    end.

  Definition cached_pairs (users : list U) (cached : list N) : list (N * U) :=
    flat_map (fun c => match ubi users c with Some u => [(c, u)] | None => [] end) cached.

  Definition tier_cands (o : origin) (l : list (N * U)) : list (N * U * origin) :=
    map (fun p => (p, o)) (filter (fun p => Bool.eqb (hint (snd p)) (origin_hint o)) l).

  Definition tier (users : list U) (cached : list N) (w : bool) : list (N * U * origin) :=
    tier_cands (if w then OCachedHint else OCachedFallback) (cached_pairs users cached) ++
    tier_cands (if w then ORegistryHint else ORegistryFallback) (index_from U 1 users).

  Definition candidates (users : list U) (cached : list N) (mandatory : bool) : list (N * U * origin) :=
    tier users cached true ++ (if mandatory then [] else tier users cached false).

  Lemma cached_pairs_in : forall users cached i u,
    In (i, u) (cached_pairs users cached) <-> In i cached /\ ubi users i = Some u.
  Proof.
    intros users cached i u. unfold cached_pairs. rewrite in_flat_map. split.
    - intros [c [Hc Hin]]. destruct (ubi users c) as [v|] eqn:Hv; [|destruct Hin].
      destruct Hin as [Heq|[]]. inversion Heq; subst. split; [exact Hc|exact Hv].
    - intros [Hc Hu]. exists i. rewrite Hu. split; [exact Hc|left; reflexivity].
  Qed.

  Lemma cands_in : forall o l i u o',
    In (i, u, o') (tier_cands o l) <-> o' = o /\ In (i, u) l /\ hint u = origin_hint o.
  Proof.
    intros o l i u o'. unfold tier_cands. rewrite in_map_iff. split.
    - intros [[j v] [Heq Hin]]. inversion Heq; subst. apply filter_In in Hin. destruct Hin as [Hin Hh].
      apply eqb_prop in Hh. auto.
    - intros [-> [Hin Hh]]. exists (i, u). split; [reflexivity|]. apply filter_In. split; [exact Hin|].
      cbn [snd]. rewrite Hh. apply eqb_reflx.
  Qed.

  Lemma tier_in : forall users cached w i u o,
    In (i, u, o) (tier users cached w) ->
    ubi users i = Some u /\ hint u = w /\ origin_hint o = w /\ (is_cached o = true -> In i cached).
  Proof.
    intros users cached w i u o H. unfold tier in H. apply in_app_iff in H.
    destruct H as [H|H]; apply cands_in in H; destruct H as [-> [Hin Hh]].
    - apply cached_pairs_in in Hin. destruct Hin as [Hc Hu]. destruct w; auto.
    - apply index_ubi in Hin. destruct w; repeat split; auto; discriminate.
  Qed.

  Lemma tier_reg : forall users cached i u,
    ubi users i = Some u -> exists o, In (i, u, o) (tier users cached (hint u)).
  Proof.
    intros users cached i u Hu. apply index_ubi in Hu.
    exists (if hint u then ORegistryHint else ORegistryFallback). apply in_or_app. right.
    apply cands_in. destruct (hint u); auto.
  Qed.

  Lemma candidates_in : forall users cached mandatory i u o,
    In (i, u, o) (candidates users cached mandatory) ->
    ubi users i = Some u /\ hint u = origin_hint o /\ (mandatory = true -> origin_hint o = true) /\
    (is_cached o = true -> In i cached).
  Proof.
    intros users cached mandatory i u o H. unfold candidates in H. apply in_app_iff in H.
    destruct H as [H|H].
    - apply tier_in in H. destruct H as [H1 [H2 [H3 H4]]]. rewrite H2, H3. auto.
    - destruct mandatory; [destruct H|]. apply tier_in in H. destruct H as [H1 [H2 [H3 H4]]].
      rewrite H2, H3. repeat split; auto.
  Qed.

  (* the one unfolding of loop and tier_cands: loop_pc and loop_pr go through it *)
  Lemma loop_cands_cons : forall o i u l rest att tried,
    loop (tier_cands o ((i, u) :: l) ++ rest) att tried =
    if was_attempted att i || negb (Bool.eqb (hint u) (origin_hint o))
    then loop (tier_cands o l ++ rest) att tried
    else if auth u then {| r_hit := Some (i, u, o); r_tried := tried ++ [i] |}
    else loop (tier_cands o l ++ rest) (if is_cached o then mark att i else att) (tried ++ [i]).
  Proof.
    intros o i u l rest att tried. unfold tier_cands. cbn [filter snd].
    destruct (Bool.eqb (hint u) (origin_hint o)); cbn [map app loop negb].
    - rewrite orb_false_r. reflexivity.
    - rewrite orb_true_r. reflexivity.
  Qed.

  Lemma loop_pc : forall o users rest, is_cached o = true -> forall cached att tried,
    loop (tier_cands o (cached_pairs users cached) ++ rest) att tried =
    match pc (origin_hint o) users cached att tried with
    | (Some p, _, t) => {| r_hit := Some (p, o); r_tried := t |}
    | (None, a, t) => loop rest a t
    end.
  Proof.
    intros o users rest Ho. induction cached as [|c cached IH]; intros att tried; [reflexivity|].
    cbn [phase_cached cached_pairs flat_map]. destruct (ubi users c) as [u|]; [|exact (IH att tried)].
    cbn [app]. rewrite loop_cands_cons, Ho.
    destruct (_ || _); [exact (IH att tried)|]. destruct (auth u); [reflexivity|exact (IH _ _)].
  Qed.

  Lemma loop_pr : forall o rest, is_cached o = false -> forall ius att tried,
    loop (tier_cands o ius ++ rest) att tried =
    match pr (origin_hint o) ius att tried with
    | (Some p, t) => {| r_hit := Some (p, o); r_tried := t |}
    | (None, t) => loop rest att t
    end.
  Proof.
    intros o rest Ho. induction ius as [|[i u] ius IH]; intros att tried; [reflexivity|].
    cbn [phase_registry]. rewrite loop_cands_cons, Ho.
    destruct (_ || _); [exact (IH att tried)|]. destruct (auth u); [reflexivity|exact (IH _ _)].
  Qed.

  Lemma try_state_loop : forall users cached mandatory,
    ts users cached mandatory = loop (candidates users cached mandatory) [] [].
  Proof.
    intros users cached mandatory. unfold try_state, candidates, tier.
    (* loop_pc / loop_pr consume a list of the form tier_cands o l ++ rest; the last pass needs ++ [] *)
    rewrite <- app_assoc.
    rewrite (loop_pc OCachedHint) by reflexivity. cbn [origin_hint].
    destruct (pc true users cached [] []) as [[[[i u]|] a1] t1]; [reflexivity|].
    rewrite (loop_pr ORegistryHint) by reflexivity. cbn [origin_hint].
    destruct (pr true (index_from U 1 users) a1 t1) as [[[i u]|] t2]; [reflexivity|].
    destruct mandatory; [reflexivity|].
    rewrite (loop_pc OCachedFallback) by reflexivity. cbn [origin_hint].
    destruct (pc false users cached a1 t2) as [[[[i u]|] a3] t3]; [reflexivity|].
    rewrite <- (app_nil_r (tier_cands ORegistryFallback _)), (loop_pr ORegistryFallback) by reflexivity.
    cbn [origin_hint].
    destruct (pr false (index_from U 1 users) a3 t3) as [[[i u]|] t4]; reflexivity.
  Qed.

  (* skipping an attempted id never skips a hit: every attempted id has failed *)
  Lemma loop_hit : forall users cs, (forall i u o, In (i, u, o) cs -> ubi users i = Some u) ->
    forall att tried, (forall i u, In i att -> ubi users i = Some u -> auth u = false) ->
    r_hit (loop cs att tried) = find (fun c => auth (snd (fst c))) cs.
  Proof.
    intros users. induction cs as [|[[i u] o] rest IH]; intros Hreg att tried Hf; [reflexivity|].
    cbn [loop find fst snd].
    assert (Hu : ubi users i = Some u) by (apply (Hreg i u o); left; reflexivity).
    assert (Hreg' : forall j v o', In (j, v, o') rest -> ubi users j = Some v)
      by (intros j v o' H; apply (Hreg j v o'); right; exact H).
    destruct (was_attempted att i) eqn:Hw.
    - apply wa_spec in Hw. rewrite (Hf i u Hw Hu). exact (IH Hreg' att tried Hf).
    - destruct (auth u) eqn:Ha; [reflexivity|]. apply (IH Hreg'). intros j v Hj Hv.
      destruct (is_cached o); [|exact (Hf j v Hj Hv)].
      apply mark_incl in Hj. destruct Hj as [Hj | ->]; [exact (Hf j v Hj Hv)|congruence].
  Qed.

  Theorem try_state_hit : forall users cached mandatory,
    r_hit (ts users cached mandatory) =
    find (fun c => auth (snd (fst c))) (candidates users cached mandatory).
  Proof.
    intros users cached mandatory. rewrite try_state_loop. apply (loop_hit users).
    - intros i u o H. apply candidates_in in H. tauto.
    - intros i u [].
  Qed.

  Theorem attr_sound : forall users cached mandatory i u o,
    r_hit (ts users cached mandatory) = Some (i, u, o) ->
    ubi users i = Some u /\ In u users /\ auth u = true /\ hint u = origin_hint o /\
    (mandatory = true -> origin_hint o = true).
  Proof.
    intros users cached mandatory i u o H. rewrite try_state_hit in H. apply find_some in H.
    destruct H as [Hin Ha]. apply candidates_in in Hin. destruct Hin as [H1 [H2 [H3 _]]].
    repeat split; auto. exact (ubi_in _ _ _ H1).
  Qed.

  Theorem attr_complete : forall users cached mandatory,
    r_hit (ts users cached mandatory) = None ->
    forall i u, ubi users i = Some u -> (mandatory = true -> hint u = true) -> auth u = false.
  Proof.
    intros users cached mandatory H i u Hu Hel. rewrite try_state_hit in H.
    destruct (tier_reg users cached i u Hu) as [o Hin].
    apply (find_none _ _ H (i, u, o)). unfold candidates. apply in_or_app.
    destruct (hint u); [left; exact Hin|]. right. destruct mandatory; [discriminate (Hel eq_refl)|exact Hin].
  Qed.

  (* the hint tier comes first in the list *)
  Theorem attr_hint_pref : forall users cached mandatory,
    (exists i u, ubi users i = Some u /\ hint u = true /\ auth u = true) ->
    exists j v o, r_hit (ts users cached mandatory) = Some (j, v, o) /\ hint v = true /\ origin_hint o = true.
  Proof.
    intros users cached mandatory [i [u [Hu [Hh Ha]]]]. rewrite try_state_hit. unfold candidates.
    rewrite find_app.
    destruct (find _ (tier users cached true)) as [[[j v] o]|] eqn:F.
    - apply find_some in F. destruct F as [Hin _]. apply tier_in in Hin. exists j, v, o. tauto.
    - destruct (tier_reg users cached i u Hu) as [o Hin]. rewrite Hh in Hin.
      pose proof (find_none _ _ F _ Hin) as Hf. cbn in Hf. congruence.
  Qed.

  Lemma loop_tried : forall cs att tried i,
    In i (r_tried (loop cs att tried)) -> In i tried \/ In i (map cid cs).
  Proof.
    induction cs as [|[[j u] o] rest IH]; intros att tried i H; cbn [loop] in H; [left; exact H|].
    cbn [map cid fst In].
    assert (Snoc : In i (tried ++ [j]) -> In i tried \/ j = i \/ In i (map cid rest)).
    { intros Hi. apply in_app_iff in Hi. destruct Hi as [Hi|[Hi|[]]]; auto. }
    destruct (was_attempted att j).
    - destruct (IH _ _ _ H); auto.
    - destruct (auth u); [exact (Snoc H)|]. destruct (IH _ _ _ H) as [Hi|Hi]; auto.
  Qed.

  Theorem attr_tried_registered : forall users cached mandatory i,
    In i (r_tried (ts users cached mandatory)) -> exists u, ubi users i = Some u.
  Proof.
    intros users cached mandatory i H. rewrite try_state_loop in H. apply loop_tried in H.
    destruct H as [[]|H]. apply in_map_iff in H. destruct H as [[[j u] o] [<- H]].
    apply candidates_in in H. exists u. tauto.
  Qed.

  (* a registry candidate is the last candidate with its id *)
  Fixpoint last_reg (cs : list (N * U * origin)) : Prop :=
    match cs with
    | [] => True
    | c :: rest => (is_cached (snd c) = false -> ~ In (cid c) (map cid rest)) /\ last_reg rest
    end.

  Lemma last_reg_app : forall a b, last_reg a -> last_reg b ->
    (forall c, In c a -> is_cached (snd c) = false -> ~ In (cid c) (map cid b)) -> last_reg (a ++ b).
  Proof.
    induction a as [|c a IH]; intros b Ha Hb Hab; [exact Hb|].
    destruct Ha as [Hc Ha]. split.
    - intros Ho Hin. rewrite map_app, in_app_iff in Hin.
      destruct Hin as [Hin|Hin]; [exact (Hc Ho Hin)|exact (Hab c (or_introl eq_refl) Ho Hin)].
    - apply IH; [exact Ha|exact Hb|]. intros c' Hc'. apply Hab. right. exact Hc'.
  Qed.

  Lemma last_reg_cands : forall o l, (is_cached o = false -> NoDup (map fst l)) -> last_reg (tier_cands o l).
  Proof.
    intros o. induction l as [|[i u] l IH]; intros Hnd; [exact I|].
    assert (Hl : last_reg (tier_cands o l)).
    { apply IH. intros Ho. specialize (Hnd Ho). inversion Hnd; assumption. }
    unfold tier_cands. cbn [filter snd]. destruct (Bool.eqb (hint u) (origin_hint o)); [|exact Hl].
    split; [|exact Hl]. cbn [snd cid fst]. intros Ho Hin. specialize (Hnd Ho).
    inversion Hnd as [|? ? Hi _]; subst. apply Hi.
    apply in_map_iff in Hin. destruct Hin as [[[j v] o'] [<- Hin]]. apply cands_in in Hin.
    apply in_map_iff. exists (j, v). tauto.
  Qed.

  Lemma last_reg_candidates : forall users cached mandatory, last_reg (candidates users cached mandatory).
  Proof.
    intros users cached mandatory.
    assert (T : forall w, last_reg (tier users cached w)).
    { intros w. apply last_reg_app.
      - apply last_reg_cands. destruct w; discriminate.
      - apply last_reg_cands. intros _. apply index_nodup.
      - intros [[i u] o] Hin Ho. apply cands_in in Hin. destruct Hin as [-> _]. destruct w; discriminate. }
    apply last_reg_app; [apply T|destruct mandatory; [exact I|apply T]|].
    (* an id does not occur in both tiers: its user has one hint value *)
    intros [[i u] o] Hin _ Hin'. destruct mandatory; [destruct Hin'|].
    apply in_map_iff in Hin'. destruct Hin' as [[[j v] o'] [Hj Hin']]. cbn in Hj. subst j.
    apply tier_in in Hin. apply tier_in in Hin'. destruct Hin as [H1 [H2 _]]. destruct Hin' as [H3 [H4 _]].
    congruence.
  Qed.

  (* invariant: a tried id that still lies ahead is in the attempted array.  A cached trial enters
     it (mark_fresh: there is room); after a registry trial the id lies ahead no more (last_reg). *)
  Lemma loop_once : forall full, N.of_nat (length full) <= att_cap ->
    forall cs, last_reg cs -> Forall (fun c => is_cached (snd c) = true -> In (cid c) full) cs ->
    forall att tried, NoDup att -> incl att full -> NoDup tried ->
      (forall i, In i tried -> In i (map cid cs) -> In i att) ->
      NoDup (r_tried (loop cs att tried)).
  Proof.
    intros full Hcap. induction cs as [|[[i u] o] rest IH]; intros Hl Hc att tried Ha Hi Ht Hb; [exact Ht|].
    cbn [loop]. destruct Hl as [Hl Hl']. pose proof (Forall_inv Hc) as Hf. pose proof (Forall_inv_tail Hc) as Hc'.
    cbn [snd cid fst] in Hl, Hf.
    assert (Hb' : forall j, In j tried -> In j (map cid rest) -> In j att)
      by (intros j Hj Hr; apply Hb; [exact Hj|right; exact Hr]).
    destruct (was_attempted att i) eqn:Hw; [exact (IH Hl' Hc' _ _ Ha Hi Ht Hb')|].
    apply wa_false in Hw.
    assert (Ht' : NoDup (tried ++ [i])).
    { apply nodup_snoc; [exact Ht|]. intros H. apply Hw, Hb; [exact H|left; reflexivity]. }
    destruct (auth u); [exact Ht'|].
    destruct (is_cached o).
    - specialize (Hf eq_refl).
      rewrite (mark_fresh full) by assumption.
      apply (IH Hl' Hc'); [exact (nodup_snoc _ _ Ha Hw)| |exact Ht'|].
      + apply incl_app; [exact Hi|]. intros j [<-|[]]. exact Hf.
      + intros j Hj Hr. apply in_app_iff. apply in_app_iff in Hj.
        destruct Hj as [Hj|Hj]; [left; exact (Hb' j Hj Hr)|right; exact Hj].
    - apply (IH Hl' Hc' _ _ Ha Hi Ht'). intros j Hj Hr. apply in_app_iff in Hj.
      destruct Hj as [Hj|[<-|[]]]; [exact (Hb' j Hj Hr)|destruct (Hl eq_refl Hr)].
  Qed.

  Theorem attr_once : forall users cached mandatory,
    N.of_nat (length cached) <= att_cap ->
    NoDup (r_tried (ts users cached mandatory)).
  Proof.
    intros users cached mandatory Hcap. rewrite try_state_loop.
    apply (loop_once cached Hcap).
    - apply last_reg_candidates.
    - apply Forall_forall. intros [[i u] o] Hin. apply candidates_in in Hin. tauto.
    - constructor.
    - apply incl_nil_l.
    - constructor.
    - intros i [].
  Qed.

  Definition distinct_credentials (users : list U) : Prop :=
    forall i j u v, ubi users i = Some u -> ubi users j = Some v ->
                    auth u = true -> auth v = true -> i = j.

  Lemma single_credential : forall users u0,
    NoDup users -> (forall u, auth u = true -> u = u0) -> distinct_credentials users.
  Proof.
    intros users u0 Hnd H1 i j u v Hi Hj Hu Hv. rewrite (H1 u Hu) in Hi. rewrite (H1 v Hv) in Hj.
    apply ubi_spec in Hi. apply ubi_spec in Hj. destruct Hi as [k [-> Hi]]. destruct Hj as [k' [-> Hj]].
    assert (Hl : (k < length users)%nat) by (apply nth_error_Some; congruence).
    rewrite <- Hj in Hi. rewrite (proj1 (NoDup_nth_error users) Hnd k k' Hl Hi). reflexivity.
  Qed.

  (* last hypothesis: u is the only user to authenticate among those the hint does not rank below it *)
  Theorem outcome_unique : forall users mandatory i u,
    ubi users i = Some u -> auth u = true -> (mandatory = true -> hint u = true) ->
    (forall j v, ubi users j = Some v -> auth v = true -> hint v = true \/ hint v = hint u -> j = i) ->
    forall cached, outcome U (ts users cached mandatory) = Some (i, u).
  Proof.
    intros users mandatory i u Hu Ha Hel Huniq cached. unfold outcome.
    destruct (r_hit (ts users cached mandatory)) as [[[j v] o]|] eqn:H.
    - destruct (attr_sound _ _ _ _ _ _ H) as [A1 [_ [A2 _]]].
      assert (Hv : hint v = true \/ hint v = hint u).
      { destruct (hint u) eqn:Hh; [left|destruct (hint v); auto].
        (* u hint-matches and authenticates, so the result, which is (j, v, o), hint-matches *)
        destruct (attr_hint_pref users cached mandatory) as [j' [v' [o' [H' [Hv' _]]]]];
          [exists i, u; auto|].
        rewrite H in H'. inversion H'; subst v'. exact Hv'. }
      assert (j = i) by exact (Huniq j v A1 A2 Hv). subst j. congruence.
    - pose proof (attr_complete _ _ _ H _ _ Hu Hel). congruence.
  Qed.

  Theorem cache_independent : forall users mandatory,
    distinct_credentials users ->
    forall cached cached',
      outcome U (ts users cached mandatory) = outcome U (ts users cached' mandatory).
  Proof.
    intros users mandatory Hd.
    assert (E : forall cached cached' i u o, r_hit (ts users cached mandatory) = Some (i, u, o) ->
                outcome U (ts users cached' mandatory) = Some (i, u)).
    { intros cached cached' i u o H. destruct (attr_sound _ _ _ _ _ _ H) as [A1 [_ [A2 [A3 A4]]]].
      apply outcome_unique; [exact A1|exact A2|rewrite A3; exact A4|].
      intros j v Hv Hav _. exact (Hd _ _ _ _ Hv A1 Hav A2). }
    intros cached cached'. unfold outcome at 1.
    destruct (r_hit (ts users cached mandatory)) as [[[i u] o]|] eqn:H1; [symmetry; exact (E _ _ _ _ _ H1)|].
    unfold outcome. destruct (r_hit (ts users cached' mandatory)) as [[[j v] o]|] eqn:H2; [|reflexivity].
    pose proof (E _ cached _ _ _ H2) as H. unfold outcome in H. rewrite H1 in H. discriminate.
  Qed.

  Theorem cache_independent_hinted : forall users mandatory i u,
    ubi users i = Some u -> hint u = true -> auth u = true ->
    (forall j v, ubi users j = Some v -> hint v = true -> auth v = true -> j = i) ->
    forall cached, outcome U (ts users cached mandatory) = Some (i, u).
  Proof.
    intros users mandatory i u Hu Hh Ha Huniq. apply outcome_unique; [exact Hu|exact Ha|auto|].
    intros j v Hv Hav Hhv. apply (Huniq j v Hv); [|exact Hav]. rewrite Hh in Hhv. tauto.
  Qed.

  (* discover is DShort on metadata shorter than the nonce, before any generation is loaded, and
     discover_loop otherwise: the theorems speak of the loop *)
  Notation dl := (discover_loop U hint auth).

  Definition retried (it : iter U) : Prop :=
    exists g', it_state it = Some g' /\ g_users g' <> [] /\ same_gen U (it_check it) g' = false.

  (* the iteration that decides a call ending in acceptance or rejection *)
  Lemma discover_loop_decides : forall rc its r,
    dl rc its = r -> r <> DOutOfObs -> r <> DNoUsers ->
    exists pre it post g,
      its = pre ++ it :: post /\ (forall it', In it' pre -> retried it') /\
      it_state it = Some g /\ (rc = true -> it_check it = Some (g_id g)) /\
      match r with
      | DOk g' i u o _ => g' = g /\ r_hit (ts (g_users g) (it_cached it) (it_mand it)) = Some (i, u, o)
      | _ => r_hit (ts (g_users g) (it_cached it) (it_mand it)) = None
      end.
  Proof.
    intros rc. induction its as [|it rest IH]; intros r H Hobs Hnu; cbn [discover_loop] in H; [congruence|].
    destruct (it_state it) as [g|] eqn:Hs; [|congruence].
    destruct (g_users g) as [|u0 us0] eqn:Hus; [congruence|]. rewrite <- Hus in H.
    destruct (rc && negb (same_gen U (it_check it) g)) eqn:Hc.
    - apply andb_true_iff in Hc. destruct Hc as [_ Hc]. apply negb_true_iff in Hc.
      destruct (IH r H Hobs Hnu) as [pre [it1 [post [g1 [E [Hpre Hit]]]]]].
      exists (it :: pre), it1, post, g1. subst rest. split; [reflexivity|]. split; [|exact Hit].
      intros it' [<-|Hin]; [|exact (Hpre it' Hin)]. exists g. rewrite Hus. repeat split; [exact Hs|discriminate|exact Hc].
    - exists [], it, rest, g. split; [reflexivity|]. split; [intros it' []|]. split; [exact Hs|].
      split; [|subst r; destruct (r_hit _) as [[[i u] o]|]; auto].
      intros ->. apply negb_false_iff in Hc. unfold same_gen in Hc.
      destruct (it_check it) as [c|]; [|discriminate]. apply N.eqb_eq in Hc. congruence.
  Qed.

  Theorem discover_current : forall its g i u o t,
    dl true its = DOk g i u o t ->
    exists pre it post,
      its = pre ++ it :: post /\ it_state it = Some g /\ it_check it = Some (g_id g) /\
      (forall it', In it' pre -> retried it') /\
      ubi (g_users g) i = Some u /\ In u (g_users g) /\ auth u = true /\
      (it_mand it = true -> hint u = true).
  Proof.
    intros its g i u o t H.
    destruct (discover_loop_decides _ _ _ H) as [pre [it [post [g' [E [Hpre [Hs [Hck [<- Hh]]]]]]]]]; [discriminate..|].
    destruct (attr_sound _ _ _ _ _ _ Hh) as [A1 [A2 [A3 [A4 A5]]]].
    exists pre, it, post. repeat split; auto. intros Hm. rewrite A4. auto.
  Qed.

  Theorem discover_not_older : forall rc its g i u o t k,
    dl rc its = DOk g i u o t ->
    (forall it g', In it its -> it_state it = Some g' -> k <= g_id g') ->
    k <= g_id g /\ ubi (g_users g) i = Some u /\ In u (g_users g) /\ auth u = true.
  Proof.
    intros rc its g i u o t k H Hk.
    destruct (discover_loop_decides _ _ _ H) as [pre [it [post [g' [E [_ [Hs [_ [<- Hh]]]]]]]]]; [discriminate..|].
    destruct (attr_sound _ _ _ _ _ _ Hh) as [A1 [A2 [A3 _]]].
    split; [|auto]. apply (Hk it g); [|exact Hs]. subst its. apply in_or_app. right. left. reflexivity.
  Qed.

  (* Without requireCurrent (the UDP path) the loop never retries: the first load decides. *)
  Theorem discover_snapshot : forall it rest,
    dl false (it :: rest) = dl false [it].
  Proof.
    intros it rest. cbn [discover_loop]. destruct (it_state it) as [g|]; [|reflexivity].
    destruct (g_users g); reflexivity.
  Qed.

  Theorem discover_reject_complete : forall rc its,
    dl rc its = DNoAuth ->
    exists it g, In it its /\ it_state it = Some g /\
      forall i u, ubi (g_users g) i = Some u -> (it_mand it = true -> hint u = true) -> auth u = false.
  Proof.
    intros rc its H.
    destruct (discover_loop_decides _ _ _ H) as [pre [it [post [g [E [_ [Hs [_ Hh]]]]]]]]; [discriminate..|].
    exists it, g. split; [subst its; apply in_or_app; right; left; reflexivity|]. split; [exact Hs|].
    exact (attr_complete _ _ _ Hh).
  Qed.
End Proofs.

Lemma shortcut_same_peer : forall opens ss ip port s,
  shortcut same_peer opens ss ip port = Some s ->
  In s ss /\ us_ip s = ip /\ us_port s = port /\ opens s = true.
Proof.
  intros opens ss ip port s H. unfold shortcut in H. apply find_some in H. destruct H as [Hin Hb].
  apply andb_true_iff in Hb. destruct Hb as [Hp Ho]. unfold same_peer in Hp.
  apply andb_true_iff in Hp. destruct Hp as [H1 H2]. apply N.eqb_eq in H1, H2. auto.
Qed.

Lemma shortcut_other_sockets_irrelevant : forall opens ss ip port disc,
  (forall s, In s ss -> us_ip s = ip -> us_port s <> port) ->
  udp_attribute same_peer opens ss ip port disc = disc.
Proof.
  intros opens ss ip port disc H. unfold udp_attribute.
  destruct (shortcut same_peer opens ss ip port) as [s|] eqn:Hs; [|reflexivity].
  destruct (shortcut_same_peer _ _ _ _ _ Hs) as [Hin [H1 [H2 _]]]. exfalso. exact (H s Hin H1 H2).
Qed.

(* [D ip port] = what discovery answers for first segments sent from that socket, assumed the same
   over the whole history (a UDP socket belongs to one client, i.e. one user name and credential).
   That follows from C07_cache_independent(_hinted) when their premises hold; with shared
   credentials and no usable hint it is a premise about the history *)
Definition sessions_ok (D : N -> N -> option N) (ss : list usession) : Prop :=
  forall s, In s ss -> D (us_ip s) (us_port s) = Some (us_user s).

Lemma udp_attribute_sound : forall D opens ss ip port,
  sessions_ok D ss ->
  udp_attribute same_peer opens ss ip port (D ip port) = D ip port.
Proof.
  intros D opens ss ip port I. unfold udp_attribute.
  destruct (shortcut same_peer opens ss ip port) as [s|] eqn:Hs; [|reflexivity].
  destruct (shortcut_same_peer _ _ _ _ _ Hs) as [Hin [H1 [H2 _]]]. rewrite <- (I s Hin), H1, H2. reflexivity.
Qed.

Theorem existing_session_shortcut_sound : forall D evs ss,
  sessions_ok D ss ->
  (forall e, In e evs -> ev_disc e = D (ev_ip e) (ev_port e)) ->
  snd (udp_run same_peer ss evs) = map ev_disc evs /\ sessions_ok D (fst (udp_run same_peer ss evs)).
Proof.
  intros D. induction evs as [|e rest IH]; intros ss I He; cbn [udp_run map]; [split; [reflexivity|exact I]|].
  assert (Ha : udp_attribute same_peer (ev_opens e) ss (ev_ip e) (ev_port e) (ev_disc e) = ev_disc e).
  { rewrite (He e (or_introl eq_refl)). apply udp_attribute_sound. exact I. }
  rewrite Ha.
  (* the sessions after the step, as udp_run computes them *)
  set (ss' := match ev_disc e with
              | Some u => ss ++ [{| us_ip := ev_ip e; us_port := ev_port e; us_user := u |}]
              | None => ss end).
  assert (I' : sessions_ok D ss').
  { subst ss'. destruct (ev_disc e) as [u|] eqn:Hd; [|exact I].
    intros s Hs. apply in_app_iff in Hs. destruct Hs as [Hs|[<-|[]]]; [exact (I s Hs)|].
    cbn. rewrite <- (He e (or_introl eq_refl)). exact Hd. }
  destruct (IH ss' I' (fun e' H' => He e' (or_intror H'))) as [E1 E2].
  destruct (udp_run same_peer ss' rest) as [fin outs]. cbn [fst snd] in *. split; [f_equal; exact E1|exact E2].
Qed.

Definition ex_hint (u : N) : bool := (u =? 20) || (u =? 30).       (* users 20 and 30 collide on the hint *)
Definition ex_auth (u : N) : bool := (u =? 30) || (u =? 40).       (* 30 and 40 share a credential *)
Definition ex_users : list N := [10; 20; 30; 40].

(* cached ids: stale (9), zero, repeated, a real one *)
Example ex_try1 :
  try_state N ex_hint ex_auth ex_users [9; 0; 4; 4; 2] false
  = {| r_hit := Some (3, 30, ORegistryHint); r_tried := [2; 3] |}.
Proof. vm_compute. reflexivity. Qed.

Example ex_try2 :   (* no hint match authenticates for this auth: fallback prefers the cached user *)
  try_state N (fun _ => false) ex_auth ex_users [4] false
  = {| r_hit := Some (4, 40, OCachedFallback); r_tried := [4] |}.
Proof. vm_compute. reflexivity. Qed.

Example ex_try3 :   (* the same segment from a source with an empty cache is attributed to user 3 *)
  try_state N (fun _ => false) ex_auth ex_users [] false
  = {| r_hit := Some (3, 30, ORegistryFallback); r_tried := [1; 2; 3] |}.
Proof. vm_compute. reflexivity. Qed.

(* cache_independent needs its hypothesis: with a shared credential and no usable hint the
   attributed user depends on the cache *)
Lemma shared_credential_cache_dependent :
  exists users cached cached',
    outcome N (try_state N (fun _ => false) ex_auth users cached false)
    <> outcome N (try_state N (fun _ => false) ex_auth users cached' false).
Proof. exists ex_users, [4], []. vm_compute. discriminate. Qed.

Example ex_distinct : distinct_credentials N (fun u => u =? 30) ex_users.
Proof.
  apply single_credential with (u0 := 30); [|intros u Hu; apply N.eqb_eq; exact Hu].
  repeat (constructor; [cbn [In]; lia|]). constructor.
Qed.

Example ex_once_hyp : N.of_nat (length [9; 0; 4; 4; 2]) <= att_cap.
Proof. vm_compute. discriminate. Qed.

(* attr_once needs the bound: 17 distinct hint-matching cached ids overflow the attempted array
   and user 17 is tried twice (the code never passes more than sourceUserCacheUsers ids) *)
Example ex_once_overflow :
  let users := map N.of_nat (seq 1 17) in
  r_tried (try_state N (fun _ => true) (fun _ => false) users users true)
  = users ++ [17].
Proof. vm_compute. reflexivity. Qed.

(* a reload between the attempt and the check: generation 1 is discarded, generation 2 decides *)
Definition ex_g1 : gen N := {| g_id := 1; g_users := [10; 20] |}.
Definition ex_g2 : gen N := {| g_id := 2; g_users := [20; 50] |}.
Definition ex_its : list (iter N) :=
  [ {| it_state := Some ex_g1; it_mand := false; it_cached := [1]; it_check := Some 2 |};
    {| it_state := Some ex_g2; it_mand := false; it_cached := []; it_check := Some 2 |} ].

Example ex_discover_current :   (* credential of user 10 (removed by the reload) no longer authenticates *)
  discover N (fun _ => false) (fun u => u =? 10) false true ex_its = DNoAuth.
Proof. vm_compute. reflexivity. Qed.

Example ex_discover_current_ok :
  discover N (fun _ => false) (fun u => u =? 50) false true ex_its = DOk ex_g2 2 50 ORegistryFallback [1; 2].
Proof. vm_compute. reflexivity. Qed.

(* the same observations without requireCurrent (UDP path): the snapshot generation is used *)
Example ex_discover_snapshot :
  discover N (fun _ => false) (fun u => u =? 10) false false ex_its = DOk ex_g1 1 10 OCachedFallback [1].
Proof. vm_compute. reflexivity. Qed.

(* shared credentials: alice (1) and bob (2) have the same password, every session cipher opens
   every datagram.  alice from 10.0.0.2:1000, then bob from 10.0.0.2:2000 (same IP, other
   port), a second session of alice's client over its socket, bob from another IP. *)
Definition ex_all_open (_ : usession) : bool := true.
Definition ex_udp_events : list uevent :=
  [ {| ev_ip := 10; ev_port := 1000; ev_disc := Some 1; ev_opens := ex_all_open |};
    {| ev_ip := 10; ev_port := 2000; ev_disc := Some 2; ev_opens := ex_all_open |};
    {| ev_ip := 10; ev_port := 1000; ev_disc := Some 1; ev_opens := ex_all_open |};
    {| ev_ip := 11; ev_port := 3000; ev_disc := Some 2; ev_opens := ex_all_open |} ].

Example ex_udp_shared_credential :
  snd (udp_run same_peer [] ex_udp_events) = [Some 1; Some 2; Some 1; Some 2].
Proof. vm_compute. reflexivity. Qed.

(* the port is essential: with an address test that ignores it, bob's session from alice's host
   is attributed to alice *)
Definition ip_only_peer (ip port : N) (s : usession) : bool := us_ip s =? ip.

Lemma shortcut_port_needed :
  exists evs D, sessions_ok D [] /\ (forall e, In e evs -> ev_disc e = D (ev_ip e) (ev_port e)) /\
    snd (udp_run ip_only_peer [] evs) <> map ev_disc evs.
Proof.
  exists ex_udp_events, (fun ip port => if port =? 1000 then Some 1 else Some 2).
  split; [intros s []|]. split.
  - intros e He. cbn in He. destruct He as [<-|[<-|[<-|[<-|[]]]]]; reflexivity.
  - vm_compute. discriminate.
Qed.
