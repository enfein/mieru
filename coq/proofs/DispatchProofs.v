(* C10 — Session.input, dispatch and runs: an event-loop step from a well-formed endpoint is safe ([step_ok];
   without the fix under [step_cond]); the witness against the code without the fix; locality; SOCKS5 parsers *)
From Coq Require Import NArith ZArith List Bool Lia.
From M Require Import model.Dispatch proofs.DispatchReadProofs.
Import ListNotations.
Open Scope N_scope.

(* the segment was authenticated by the session's own user (server) / by the connection's cipher (client) *)
Definition seg_matches (cl tcp : bool) (eu : N) (s : session) (g : segment) : Prop :=
  if cl then g_policy g = 0 /\ g_block g = (if tcp then Some eu else None)
  else exists u, u <> 0 /\ g_block g = Some u /\ session_owner s = u /\ (g_policy g = 0 \/ g_policy g = u).

Lemma input_identity_some : forall s g u, g_block g = Some u -> u <> 0 ->
  (s_block s = None \/ s_block s = Some u) ->
  (s_client s = true \/ s_policy s = Some u /\ (g_policy g = 0 \/ g_policy g = u)) ->
  input_identity s g = inr (mkSession (s_id s) (s_client s) (s_closed s) (s_established s) (Some u) (s_policy s)
                                      (if s_user s =? 0 then u else s_user s)).
Proof.
  intros s g u Hg Hu Hb Hc. unfold input_identity. rewrite Hg. apply N.eqb_neq in Hu.
  set (chk := match s_block s with Some _ => _ | None => None end).
  assert (Hchk : chk = None).
  { subst chk. destruct Hb as [Hb|Hb]; rewrite Hb; [reflexivity|]. rewrite Hu, N.eqb_refl. reflexivity. }
  rewrite Hchk, Hu. cbn [negb s_policy set_block].
  set (r := if s_client s then _ else _).
  assert (Hpass : r = inr (set_block s (Some u))).
  { subst r. destruct (s_client s); [reflexivity|]. destruct Hc as [Hc|[Hp Hgp]]; [discriminate|].
    rewrite Hp, N.eqb_refl. cbn [negb].
    destruct Hgp as [->| ->]; [reflexivity | rewrite N.eqb_refl, andb_false_r; reflexivity]. }
  rewrite Hpass, andb_true_r. cbn [s_user set_block]. destruct (s_user s =? 0); reflexivity.
Qed.

Lemma input_identity_ok : forall cl tcp eu s g,
  (cl = true -> eu <> 0) -> session_ok cl tcp eu s -> seg_matches cl tcp eu s g ->
  exists s', input_identity s g = inr s' /\ session_ok cl tcp eu s' /\ s_id s' = s_id s.
Proof.
  intros cl tcp eu s g Heu [Hc Hs] Hm. destruct cl.
  - destruct Hs as [Hp Hb]. destruct Hm as [Hgp Hgb]. destruct tcp.
    + assert (Hb' : s_block s = None \/ s_block s = Some eu) by (destruct Hb as [Hb|[_ Hb]]; auto).
      rewrite (input_identity_some s g eu Hgb (Heu eq_refl) Hb' (or_introl Hc)).
      eexists. split; [reflexivity|]. split; [|reflexivity]. split; [exact Hc|]. cbn. auto.
    + exists s. unfold input_identity. rewrite Hgb. repeat split; auto.
  - destruct Hs as [o [Ho [Hp [Hb [Hu Ht]]]]]. destruct Hm as [u [Hu0 [Hgb [Hown Hgp]]]].
    rewrite (owner_of_policy s o Hp Ho) in Hown. subst u.
    rewrite (input_identity_some s g o Hgb Ho Hb (or_intror (conj Hp Hgp))).
    eexists. split; [reflexivity|]. split; [|reflexivity]. split; [exact Hc|]. exists o. cbn.
    repeat split; auto. destruct Hu as [->| ->]; [auto|]. destruct (o =? 0); auto.
Qed.

Lemma tree_guard_ok : forall g, kind_ok g ->
  (g_proto g =? P_openReq) || (g_proto g =? P_openResp) || is_data_proto (g_proto g) = true ->
  tree_insert_guard g = None.
Proof.
  intros g Hk Hp. unfold tree_insert_guard, seg_seq.
  assert (Hsd : is_session_proto (g_proto g) || is_data_proto (g_proto g) = true).
  { destruct (is_data_proto (g_proto g)); [apply orb_true_r|].
    rewrite orb_false_r in Hp. unfold is_session_proto. rewrite Hp. reflexivity. }
  rewrite Hsd. destruct Hk as [[_ Hk]|[_ Hk]]; rewrite Hk; reflexivity.
Qed.

Lemma insert_guard : forall e w e1 g, wf e -> read_one e w = RSeg e1 g ->
  (g_proto g =? P_openReq) || (g_proto g =? P_openResp) || is_data_proto (g_proto g) = true ->
  tree_insert_guard g = None.
Proof.
  intros e w e1 g Hwf Hr Hp. destruct (read_one_ok e w e1 g Hwf Hr) as [_ [[Hk _] _]].
  exact (tree_guard_ok g Hk Hp).
Qed.

Lemma set_established_ok : forall cl tcp eu s, session_ok cl tcp eu s -> session_ok cl tcp eu (set_established s).
Proof. intros cl tcp eu s H. exact H. Qed.

Lemma input_data_spec : forall v tr s g,
  match input_data v tr s g with
  | InOk s' => s' = s \/ s' = set_established s
  | InPanic x => tree_insert_guard g = Some x
  | _ => True
  end.
Proof.
  intros v tr s g. unfold input_data.
  set (after_store := if negb (s_client s) && _ && _ then _ else _).
  assert (Ha : match after_store with InOk s' => s' = s \/ s' = set_established s | InPanic _ => False | _ => True end).
  { subst after_store. destruct (negb (s_client s) && _ && _).
    - destruct (negb (v_quota_ok v)), (v_insert_ok v); auto.
    - destruct (s_client s && _); auto. }
  clearbody after_store. destruct (tree_insert_guard g) as [x|].
  - (* the guard fires wherever an insert is attempted *)
    destruct tr; [reflexivity|]. destruct (negb (v_window_open v)); [auto | reflexivity].
  - (* it passes: the result is after_store, an error, or the session as it was *)
    destruct tr, (negb (v_window_open v)), (v_insert_ok v); auto.
    all: destruct after_store; auto; destruct Ha.
Qed.

Lemma input_ack_spec : forall tr s g,
  match input_ack tr s g with InOk s' => s' = s | InPanic _ => g_kind g <> KDataAck | _ => True end.
Proof. intros [|] s g; cbn; [reflexivity|]. destruct (g_kind g); cbn; congruence. Qed.

Lemma input_close_spec : forall v s g,
  match input_close v s g with
  | InOk s' => s' = s
  | InPanic _ => g_proto g = P_closeReq /\ g_kind g <> KSession
  | _ => True
  end.
Proof.
  intros v s g. unfold input_close. destruct (N.eqb_spec (g_proto g) P_closeReq) as [E|_].
  - destruct (v_write_ok v), (g_kind g); cbn [negb]; auto; split; congruence.
  - destruct (g_proto g =? P_closeResp); cbn; auto.
Qed.

Lemma input_spec : forall v tr s g,
  match input v tr s g with
  | InOk s' => exists s1, input_identity s g = inr s1 /\ (s' = s1 \/ s' = set_established s1)
  | InPanic x => input_identity s g = inl x \/ ~ kind_ok g
  | _ => True
  end.
Proof.
  intros v tr s g. unfold input.
  destruct (negb (input_direction_ok (s_client s) (g_proto g))); [exact I|].
  destruct (input_identity s g) as [x|s1]; [left; reflexivity|].
  destruct (_ || _ || is_data_proto (g_proto g)) eqn:Ed.
  { pose proof (input_data_spec v tr s1 g) as H. destruct (input_data v tr s1 g); auto.
    - exists s1. auto.
    - right. intros Hk. rewrite (tree_guard_ok g Hk Ed) in H. discriminate. }
  destruct (is_ack_proto (g_proto g)) eqn:Ea.
  { pose proof (input_ack_spec tr s1 g) as H. destruct (input_ack tr s1 g); auto.
    - exists s1. auto.
    - right. intros Hk. apply H, kind_ok_dataack_kind, ack_is_dataack; assumption. }
  destruct ((g_proto g =? P_closeReq) || (g_proto g =? P_closeResp)); [|exists s1; auto].
  pose proof (input_close_spec v s1 g) as H. destruct (input_close v s1 g); auto.
  - exists s1. auto.
  - right. intros Hk. destruct H as [Hp H]. apply H, kind_ok_session_kind; [exact Hk|].
    rewrite Hp. exact closereq_is_session.
Qed.

Lemma input_ok : forall v cl tcp eu tr s g,
  (cl = true -> eu <> 0) -> session_ok cl tcp eu s -> kind_ok g -> seg_matches cl tcp eu s g ->
  match input v tr s g with
  | InOk s' => session_ok cl tcp eu s' /\ s_id s' = s_id s
  | InPanic _ => False
  | _ => True
  end.
Proof.
  intros v cl tcp eu tr s g Heu Hs Hk Hm.
  destruct (input_identity_ok cl tcp eu s g Heu Hs Hm) as [s1 [Hid [Hs1 Hid1]]].
  pose proof (input_spec v tr s g) as H. rewrite Hid in H. destruct (input v tr s g) as [s'| | |x]; auto.
  - destruct H as [s2 [E [->| ->]]]; injection E as <-; [auto|].
    split; [apply set_established_ok; exact Hs1 | exact Hid1].
  - destruct H as [H|H]; [discriminate | exact (H Hk)].
Qed.

Definition safe (e : endpoint) (o : outcome) : Prop := (forall x, o <> Panic x) /\ wf (outcome_state e o).

Definition idle (e : endpoint) (o : outcome) : Prop := (forall x, o <> Panic x) /\ outcome_state e o = e.

(* the first argument of [outcome_state] is only the fallback for the outcomes that carry no state
   (CloseUnderlay, Panic): a fact about the state after o can be moved to another fallback that has it *)
Lemma outcome_state_other : forall (P : endpoint -> Prop) e e' o, P e' -> P (outcome_state e o) -> P (outcome_state e' o).
Proof. intros P e e' [ | | | | | ]; cbn; auto. Qed.

Lemma safe_other : forall e e' o, wf e' -> safe e o -> safe e' o.
Proof. intros e e' o H [Hn Hw]. split; [exact Hn | exact (outcome_state_other wf e e' o H Hw)]. Qed.

Lemma wf_put : forall e s', wf e -> session_ok (is_client e) (is_tcp e) (e_user e) s' ->
  wf (with_sessions e (put_session s' (e_sessions e))).
Proof.
  intros e s' [H1 [H2 H3]] Hs. split; [exact H1|].
  split; [apply put_session_Forall; assumption | cbn; rewrite put_session_ids; exact H3].
Qed.

Lemma set_closed_ok : forall cl tcp eu s, session_ok cl tcp eu s -> session_ok cl tcp eu (set_closed s).
Proof. intros cl tcp eu s H. exact H. Qed.

Lemma deliver_ok : forall v e s g, wf e -> In s (e_sessions e) -> kind_ok g ->
  seg_matches (is_client e) (is_tcp e) (e_user e) s g -> safe e (deliver v e s g).
Proof.
  intros v e s g Hwf Hin Hk Hm. pose proof (wf_session e s Hwf Hin) as Hs. unfold deliver.
  destruct (s_closed s); [split; [discriminate | exact Hwf]|].
  pose proof (input_ok v _ _ _ (e_tr e) s g (proj1 Hwf) Hs Hk Hm) as H.
  destruct (input v (e_tr e) s g) as [s'| | |x]; [| | |destruct H]; (split; [discriminate|]).
  - apply wf_put; [exact Hwf | apply H].
  - apply wf_put; [exact Hwf | apply set_closed_ok, Hs].
  - apply wf_put; [exact Hwf | apply set_closed_ok, Hs].
Qed.

(* the condition under which the unfixed dispatch is safe: the named session, if any, belongs to the authenticating user *)
Definition owner_respected (e1 : endpoint) (g : segment) : Prop :=
  forall s u, find_session (g_sid g) (e_sessions e1) = Some s -> g_block g = Some u -> session_owner s = u.

Definition lookup_cond (fixed : bool) (e : endpoint) (g : segment) : Prop :=
  fixed = true \/ is_tcp e = true \/ is_client e = true \/ owner_respected e g.

Lemma lookup_find : forall fixed e g s, lookup fixed e g = Some s -> find_session (g_sid g) (e_sessions e) = Some s.
Proof.
  intros fixed e g s H. unfold lookup in H.
  destruct (find_session (g_sid g) (e_sessions e)) as [s0|]; [|discriminate].
  destruct (fixed && _ && _); [|exact H]. destruct (g_block g); [|exact H].
  destruct (_ || _); [exact H | discriminate].
Qed.

(* on the UDP server this is what the fix checks *)
Lemma matches_of_lookup : forall fixed e g s, wf e -> seg_ok e g -> lookup_cond fixed e g ->
  lookup fixed e g = Some s ->
  In s (e_sessions e) /\ seg_matches (is_client e) (is_tcp e) (e_user e) s g.
Proof.
  intros fixed e g s Hwf [Hk Hso] Hcond Hl. pose proof (lookup_find fixed e g s Hl) as Ef.
  pose proof (find_session_In _ _ _ Ef) as [Hin _]. split; [exact Hin|].
  pose proof (wf_session e s Hwf Hin) as Hs. unfold seg_matches. unfold auth_ok in Hso.
  destruct (is_client e) eqn:Ec; [exact Hso|].
  destruct Hso as [u [Hu [Hb Hrest]]]. exists u. split; [exact Hu|]. split; [exact Hb|].
  destruct Hs as [_ [o [Ho [Hp [_ [_ Ht]]]]]]. rewrite (owner_of_policy s o Hp Ho).
  destruct (is_tcp e) eqn:Et.
  - destruct Hrest as [Hue Hgp]. split; [rewrite Hue; auto|]. rewrite Hgp. destruct (g_new_auth g); auto.
  - split; [|auto]. unfold lookup in Hl. rewrite Ef, Ec, Et, Hb in Hl.
    destruct fixed; cbn [andb negb] in Hl.
    + rewrite (owner_of_policy s o Hp Ho) in Hl. apply N.eqb_neq in Ho. rewrite Ho in Hl.
      destruct (N.eqb_spec o u); [assumption | discriminate].
    + destruct Hcond as [Hc|[Hc|[Hc|Hc]]]; [congruence..|].
      rewrite <- (Hc s u Ef Hb). symmetry. exact (owner_of_policy s o Hp Ho).
Qed.

(* the session exactly as onOpenSessionRequest stores it in sessionMap, before anything was processed *)
Definition created_session (sid pol : N) : session := mkSession sid false false false None (Some pol) 0.

(* the [s0] of [dispatch], for any segment; for one that [read_one] returns it is [created_session] *)
Definition opened_session (e : endpoint) (g : segment) : session :=
  let pol := if is_tcp e then (if g_new_auth g then g_policy g else e_user e) else g_policy g in
  mkSession (g_sid g) false false false None (if pol =? 0 then None else Some pol) 0.

Lemma opened_is_created : forall e g u, auth_ok e (g_block g) (g_policy g) (g_new_auth g) ->
  is_client e = false -> g_block g = Some u -> opened_session e g = created_session (g_sid g) u.
Proof.
  intros e g u Ha Hcl Hb. unfold auth_ok in Ha. rewrite Hcl, Hb in Ha. destruct Ha as [u' [Hu [Hb' Hrest]]].
  injection Hb' as <-. unfold opened_session. replace (if is_tcp e then _ else _) with u.
  - apply N.eqb_neq in Hu. rewrite Hu. reflexivity.
  - destruct (is_tcp e); [|auto]. destruct Hrest as [Hue Hgp]. destruct (g_new_auth g); congruence.
Qed.

(* RunEventLoop touches no session, or hands the segment to the one it creates, or to the one [lookup] finds *)
Inductive dispatch_case (fixed : bool) (v : env) (e : endpoint) (g : segment) : outcome -> Prop :=
| DcIdle : forall o, idle e o -> dispatch_case fixed v e g o
| DcOpen : is_client e = false -> find_session (g_sid g) (e_sessions e) = None ->
    dispatch_case fixed v e g
      (deliver v (with_sessions e (opened_session e g :: e_sessions e)) (opened_session e g) g)
| DcDeliver : forall s, lookup fixed e g = Some s -> dispatch_case fixed v e g (deliver v e s g).

Lemma dispatch_cases : forall fixed v e g, dispatch_case fixed v e g (dispatch fixed v e g).
Proof.
  intros fixed v e g.
  assert (Hd : idle e (Drop e)) by (split; [discriminate | reflexivity]).
  assert (Hc : idle e CloseUnderlay) by (split; [discriminate | reflexivity]).
  assert (Hr : idle e (Reply e)) by (split; [discriminate | reflexivity]).
  assert (Hh : idle e (handler_error e)) by (unfold handler_error; destruct (is_tcp e); assumption).
  unfold dispatch. destruct (is_tcp e && g_new_auth g && _); [apply DcIdle, Hc|].
  destruct (is_session_proto (g_proto g)); [|destruct (is_dataack_proto (g_proto g)); [|apply DcIdle, Hd]].
  - destruct (g_proto g =? P_openReq); [|destruct (g_proto g =? P_openResp)].
    + destruct (is_client e) eqn:Ec; [apply DcIdle, Hh|]. destruct (g_sid g =? 0); [apply DcIdle, Hh|].
      destruct (find_session (g_sid g) (e_sessions e)) eqn:Ef; [apply DcIdle, Hd|].
      exact (DcOpen fixed v e g Ec Ef).
    + destruct (is_client e) eqn:Ec; [|apply DcIdle, Hh]. cbn [negb].
      destruct (find_session (g_sid g) (e_sessions e)) as [s|] eqn:Ef; [|apply DcIdle, Hh].
      apply DcDeliver. unfold lookup. rewrite Ef, Ec, andb_false_r. reflexivity.
    + destruct (find_session (g_sid g) (e_sessions e)); [|apply DcIdle, Hd].
      destruct (lookup fixed e g) eqn:El; [apply DcDeliver, El | apply DcIdle, Hd].
  - destruct (lookup fixed e g) eqn:El; [apply DcDeliver, El|].
    destruct (_ || _ || _); [destruct (v_write_ok v)|]; apply DcIdle; assumption.
Qed.

Lemma opened_session_ok : forall e g, wf e -> seg_ok e g -> is_client e = false ->
  find_session (g_sid g) (e_sessions e) = None ->
  let e0 := with_sessions e (opened_session e g :: e_sessions e) in
  wf e0 /\ seg_matches (is_client e0) (is_tcp e0) (e_user e0) (opened_session e g) g.
Proof.
  intros e g [H1 [H2 H3]] [_ Hso] Hcl Hf. cbv zeta. pose proof Hso as Ha. unfold auth_ok in Ha.
  rewrite Hcl in Ha. destruct Ha as [u [Hu [Hb Hrest]]]. rewrite (opened_is_created e g u Hso Hcl Hb).
  unfold wf. change (is_client (with_sessions e _)) with (is_client e).
  change (is_tcp (with_sessions e _)) with (is_tcp e). change (e_user (with_sessions e _)) with (e_user e). rewrite Hcl.
  split; [split; [discriminate|]; split|].
  - constructor; [|rewrite <- Hcl; exact H2]. split; [reflexivity|]. exists u. cbn. repeat split; auto.
    intros Ht. rewrite Ht in Hrest. apply Hrest.
  - constructor; [apply find_session_none; exact Hf | exact H3].
  - exists u. split; [exact Hu|]. split; [exact Hb|]. split; [apply owner_of_policy; [reflexivity | exact Hu]|].
    destruct (is_tcp e); [|auto]. destruct Hrest as [_ ->]. destruct (g_new_auth g); auto.
Qed.

Lemma dispatch_ok : forall fixed v e g, wf e -> seg_ok e g -> lookup_cond fixed e g -> safe e (dispatch fixed v e g).
Proof.
  intros fixed v e g Hwf Hso Hcond. destruct (dispatch_cases fixed v e g) as [o Hi|Hc Hf|s Hl].
  - destruct Hi as [Hn He]. split; [exact Hn | rewrite He; exact Hwf].
  - destruct (opened_session_ok e g Hwf Hso Hc Hf) as [Hwf0 Hm0].
    eapply safe_other; [exact Hwf|]. apply deliver_ok; [exact Hwf0 | left; reflexivity | apply Hso | exact Hm0].
  - destruct (matches_of_lookup fixed e g s Hwf Hso Hcond Hl) as [Hin Hm].
    apply deliver_ok; [exact Hwf | exact Hin | apply Hso | exact Hm].
Qed.

Definition step_cond (fixed : bool) (e : endpoint) (w : wire) : Prop :=
  fixed = true \/ is_tcp e = true \/ is_client e = true \/
  (forall e1 g, read_one e w = RSeg e1 g -> owner_respected e1 g).

Lemma step_cond_read : forall fixed e w e1 g, step_cond fixed e w -> read_one e w = RSeg e1 g ->
  e_role e1 = e_role e -> e_tr e1 = e_tr e -> lookup_cond fixed e1 g.
Proof.
  intros fixed e w e1 g Hc Hr Hro Htr. unfold lookup_cond, is_tcp, is_client. rewrite Hro, Htr.
  destruct Hc as [Hc|[Hc|[Hc|Hc]]]; [auto..|]. do 3 right. exact (Hc e1 g Hr).
Qed.

Lemma step_ok : forall fixed v e w, wf e -> step_cond fixed e w -> safe e (step fixed v e w).
Proof.
  intros fixed v e w Hwf Hc. unfold step.
  pose proof (read_one_yields e w) as Y. destruct (read_one e w) as [e1 g|err| |x] eqn:Er; cbn in Y.
  - destruct (Y Hwf) as [Hwf1 [Hso [Hro [Htr _]]]].
    eapply safe_other; [exact Hwf|]. apply dispatch_ok; [exact Hwf1 | exact Hso|].
    exact (step_cond_read fixed e w e1 g Hc Er Hro Htr).
  - destruct Y as [E1 E2]. destruct (get_error_type (Some err)); try congruence; (split; [discriminate | exact Hwf]).
  - split; [discriminate | exact Hwf].
  - destruct Y.
Qed.

Fixpoint respects (fixed : bool) (e : endpoint) (l : list (env * wire)) : Prop :=
  match l with
  | [] => True
  | (v, w) :: r =>
    step_cond fixed e w /\
    match step fixed v e w with
    | Ok e' | Drop e' | Reply e' | CloseSession _ e' => respects fixed e' r
    | _ => True
    end
  end.

Lemma run_ok : forall fixed l e, wf e -> respects fixed e l -> forall x, run fixed e l <> RunPanic x.
Proof.
  induction l as [|[v w] r IH]; simpl; intros e Hwf Hr x; [discriminate|].
  destruct Hr as [Hc Hr]. destruct (step_ok fixed v e w Hwf Hc) as [Hnp Hw].
  destruct (step fixed v e w) as [e'|e'|e'|sid e'| |y]; [apply IH; assumption..|discriminate|destruct (Hnp y eq_refl)].
Qed.

Lemma respects_fixed : forall l e, respects true e l.
Proof.
  induction l as [|[v w] r IH]; simpl; intros e; [exact I|].
  split; [left; reflexivity|]. destruct (step true v e w); auto.
Qed.

Lemma no_panic_partial : forall e l, wf e -> respects false e l -> forall x, run false e l <> RunPanic x.
Proof. intros e l. apply run_ok. Qed.

Lemma step_of_read_skip : forall fixed v e w, read_one e w = RSkip -> step fixed v e w = Drop e.
Proof. intros fixed v e w H. unfold step. rewrite H. reflexivity. Qed.

Lemma step_of_read_error : forall fixed v e w err, read_one e w = RErr err -> step fixed v e w = CloseUnderlay.
Proof.
  intros fixed v e w err H. unfold step. rewrite H. destruct (read_one_error_typed e w err H) as [E1 E2].
  destruct (get_error_type (Some err)); try reflexivity; congruence.
Qed.

Lemma unauthenticated_read : forall e w, w_auth w = AuthNone ->
  if is_tcp e then exists err, read_one e w = RErr err else read_one e w = RSkip.
Proof.
  intros e w Ha. unfold read_one. destruct (is_tcp e).
  - unfold tcp_read. rewrite Ha. destruct (w_short w); [eauto|].
    destruct (negb (is_client e) && (e_user e =? 0)); [destruct (w_replay w)|]; eauto.
  - unfold udp_read. rewrite Ha.
    destruct (is_client e); [destruct (negb (w_from_server w)); [reflexivity|]|]; destruct (w_short w); reflexivity.
Qed.

(* user 1 (alice) opens session 7 on a UDP server; user 2 (bob) sends a closeSessionRequest carrying session
   id 7: without the fix Session.input's identity assertion kills the process *)
Definition env_all : env := mkEnv true true true true.
Definition wire_of (u proto sid : N) : wire :=
  mkWire false false false (AuthUser u) true proto true true sid 0 0 0 0 0 BodyOK.
Definition udp_server0 : endpoint := mkEndpoint Server UDP 0 [].
Definition witness : list (env * wire) :=
  [(env_all, wire_of 1 P_openReq 7); (env_all, wire_of 2 P_closeReq 7)].

Lemma wf_udp_server0 : wf udp_server0.
Proof. split; [discriminate|]. split; constructor. Qed.

Lemma cross_user_refuted :
  exists e l, wf e /\ e_tr e = UDP /\ e_role e = Server /\ run false e l = RunPanic SiteUserDiffers.
Proof.
  exists udp_server0, witness. split; [exact wf_udp_server0|]. split; [reflexivity|]. split; [reflexivity|].
  vm_compute. reflexivity.
Qed.

(* a segment that the cipher of the existing session [via] opens (it comes from that session's address) *)
Definition wire_existing (via proto sid : N) : wire :=
  mkWire false false false (AuthExisting via) true proto true true sid 0 0 0 0 0 BodyOK.

(* sufficient for [respects false], to be evaluated on a concrete history *)
Fixpoint respectsb (e : endpoint) (l : list (env * wire)) : bool :=
  match l with
  | [] => true
  | (v, w) :: r =>
    match read_one e w with
    | RSeg e1 g => match find_session (g_sid g) (e_sessions e1), g_block g with
                   | Some s, Some u => session_owner s =? u
                   | _, _ => true
                   end
    | _ => true
    end &&
    match step false v e w with
    | Ok e' | Drop e' | Reply e' | CloseSession _ e' => respectsb e' r
    | _ => true
    end
  end.

Lemma respectsb_sound : forall l e, respectsb e l = true -> respects false e l.
Proof.
  induction l as [|[v w] r IH]; intros e H; [exact I|].
  cbn [respectsb] in H. apply andb_true_iff in H. destruct H as [H1 H2]. split.
  - do 3 right. intros e1 g Hr s u Hf Hb. rewrite Hr, Hf, Hb in H1. apply N.eqb_eq, H1.
  - destruct (step false v e w); auto.
Qed.

(* underlay_stream.go:216/219: the only place of [step] that produces these two sites is the
   error branch, and there the guard holds for every error readOneSegment can return *)
Lemma site_stream_errtype_unreachable : forall e w err, read_one e w = RErr err ->
  match get_error_type (Some err) with NO_ERROR | UNKNOWN_ERROR => False | _ => True end.
Proof.
  intros e w err H. destruct (read_one_error_typed e w err H) as [E1 E2].
  destruct (get_error_type (Some err)); auto.
Qed.

Lemma site_user_differs_reachable_unfixed : exists e l, wf e /\ run false e l = RunPanic SiteUserDiffers.
Proof. destruct cross_user_refuted as [e [l [Hwf [_ [_ Hr]]]]]. exists e, l. auto. Qed.

Lemma all_sites_unreachable_fixed : forall v e w x, wf e -> step true v e w <> Panic x.
Proof. intros v e w x Hwf. apply (step_ok true v e w Hwf). left; reflexivity. Qed.

Lemma deliver_local : forall v e s' g id, wf e -> In s' (e_sessions e) -> kind_ok g ->
  seg_matches (is_client e) (is_tcp e) (e_user e) s' g -> id <> s_id s' ->
  find_session id (e_sessions (outcome_state e (deliver v e s' g))) = find_session id (e_sessions e).
Proof.
  intros v e s' g id Hwf Hin Hk Hm Hne. unfold deliver. destruct (s_closed s'); [reflexivity|].
  pose proof (input_ok v _ _ _ (e_tr e) s' g (proj1 Hwf) (wf_session e s' Hwf Hin) Hk Hm) as H.
  destruct (input v (e_tr e) s' g) as [s2| | |x]; [|apply find_put_other, Hne..|reflexivity].
  apply find_put_other. destruct H as [_ H]. rewrite H. exact Hne.
Qed.

Lemma dispatch_local : forall v e g u s, wf e -> seg_ok e g -> is_client e = false ->
  g_block g = Some u -> find_session (s_id s) (e_sessions e) = Some s -> session_owner s <> u ->
  find_session (s_id s) (e_sessions (outcome_state e (dispatch true v e g))) = Some s.
Proof.
  intros v e g u s Hwf Hso Hcl Hb Hf Hown.
  destruct (dispatch_cases true v e g) as [o [_ Hi]|_ Hfn|s' Hl].
  - rewrite Hi. exact Hf.
  - (* the new session has an id that was free, hence is not s *)
    assert (Hne : s_id s <> g_sid g) by (intros E; rewrite E in Hf; congruence).
    destruct (opened_session_ok e g Hwf Hso Hcl Hfn) as [Hwf0 Hm0].
    eapply (outcome_state_other (fun x => find_session (s_id s) (e_sessions x) = Some s)); [exact Hf|].
    rewrite deliver_local; [|exact Hwf0 | left; reflexivity | apply Hso | exact Hm0 | exact Hne].
    cbn. apply not_eq_sym, N.eqb_neq in Hne. rewrite Hne. exact Hf.
  - (* the session the dispatch delivers to belongs to u, hence is not s *)
    destruct (matches_of_lookup true e g s' Hwf Hso (or_introl eq_refl) Hl) as [Hin Hm].
    rewrite deliver_local; [exact Hf | exact Hwf | exact Hin | apply Hso | exact Hm|].
    intros Hid. apply lookup_find in Hl. destruct (find_session_In _ _ _ Hl) as [_ Hg].
    rewrite <- Hg, <- Hid, Hf in Hl. injection Hl as <-.
    unfold seg_matches in Hm. rewrite Hcl in Hm. destruct Hm as [u' [_ [Hb' [Ho' _]]]]. congruence.
Qed.

(* [step] is "dispatch + the session goroutine's processing". In Go these run on different goroutines: between
   the event loop storing a new session in sessionMap and the session goroutine processing its open request,
   further datagrams naming that id can be dispatched. The ownership decision ([lookup], Go:
   segmentUserOwnsSession) is immune to that window: the owner it uses is written by the event loop before the
   session becomes visible (newSessionWithServerUserPolicy) and never changed by the session goroutine: the next
   two lemmas and [input_policy]. *)
Lemma owner_defined_at_creation : forall sid pol u rest g,
  pol <> 0 -> u <> pol -> g_sid g = sid -> g_block g = Some u ->
  session_owner (created_session sid pol) = pol /\
  lookup true (mkEndpoint Server UDP 0 (created_session sid pol :: rest)) g = None.
Proof.
  intros sid pol u rest g Hp Hu Hs Hb.
  assert (Ho : session_owner (created_session sid pol) = pol) by (apply owner_of_policy; auto).
  split; [exact Ho|]. unfold lookup. cbn [e_sessions find_session created_session s_id]. rewrite Hs, N.eqb_refl.
  cbn [is_tcp is_client e_tr e_role andb negb]. rewrite Hb. fold (created_session sid pol). rewrite Ho.
  apply N.eqb_neq in Hp. apply not_eq_sym, N.eqb_neq in Hu. rewrite Hp, Hu. reflexivity.
Qed.

Lemma owner_defined_in_table : forall e s, wf e -> is_client e = false -> In s (e_sessions e) ->
  session_owner s <> 0 /\ s_policy s = Some (session_owner s).
Proof.
  intros e s Hwf Hc Hin. pose proof (wf_session e s Hwf Hin) as Hs. rewrite Hc in Hs.
  destruct Hs as [_ [o [Ho [Hp _]]]]. rewrite (owner_of_policy s o Hp Ho). auto.
Qed.

(* input_identity stores a policy only where there is none *)
Lemma input_identity_policy : forall s g s' o, s_policy s = Some o -> input_identity s g = inr s' -> s_policy s' = Some o.
Proof.
  intros s g s' o Hp H. unfold input_identity in H. cbn [s_policy set_block] in H. rewrite Hp in H.
  destruct (g_block g) as [next|]; [|injection H as <-; exact Hp].
  destruct (match s_block s with Some _ => _ | None => None end); [discriminate|].
  (* the policy checks fail or hand on the session with the cipher user set *)
  set (r := if s_client s then _ else _) in H.
  assert (Hr : r = inr (set_block s (Some next)) \/ exists x, r = inl x).
  { subst r. destruct (s_client s); [auto|]. destruct (negb (o =? next)); [eauto|]. destruct (negb _ && negb _); eauto. }
  destruct Hr as [Hr|[x Hr]]; rewrite Hr in H; [|discriminate].
  destruct (_ && negb (next =? 0)); injection H as <-; exact Hp.
Qed.

Lemma input_policy : forall v tr s g s' o, s_policy s = Some o -> input v tr s g = InOk s' -> s_policy s' = Some o.
Proof.
  intros v tr s g s' o Hp H. pose proof (input_spec v tr s g) as Hi. rewrite H in Hi.
  destruct Hi as [s1 [Hid [->| ->]]]; exact (input_identity_policy s g s1 o Hp Hid).
Qed.

(* the seeded variant: an owner read from s.userName alone, which the session goroutine writes, has the window *)
Definition owner_username_only (s : session) : N := s_user s.

(* the hypothesis is the body of [parse_socks5_addr]'s local fixed_len, which its FQDN branch repeats: a host of
   n bytes and a port are n + 2 bytes *)
Lemma host_port_consumed : forall n r (t c : N) t' host port used,
  match take_exact n r with
  | Some (h, r2) => match parse_port r2 with Some p => Some (t, h, p, c) | None => None end
  | None => None
  end = Some (t', host, port, used) -> used = c /\ exists rest : list N, length r = (n + 2 + length rest)%nat.
Proof.
  intros n r t c t' host port used H. unfold take_exact in H.
  destruct (Nat.leb_spec n (length r)) as [Hn|_]; [|discriminate].
  pose proof (skipn_length n r) as Hl.
  destruct (skipn n r) as [|a [|b r3]]; try discriminate. injection H as _ _ _ <-.
  split; [reflexivity|]. exists r3. cbn [length] in Hl. lia.
Qed.

Lemma parse_socks5_addr_consumed : forall l t host port used,
  parse_socks5_addr l = Some (t, host, port, used) -> exists rest : list N, length l = (N.to_nat used + length rest)%nat.
Proof.
  intros l t host port used H. unfold parse_socks5_addr in H. destruct l as [|t0 r]; [discriminate|].
  destruct (t0 =? T_v4).
  { apply host_port_consumed in H. destruct H as [-> [rest E]]. exists rest. cbn [length]. rewrite E. reflexivity. }
  destruct (t0 =? T_v6).
  { apply host_port_consumed in H. destruct H as [-> [rest E]]. exists rest. cbn [length]. rewrite E. reflexivity. }
  destruct (t0 =? T_fqdn); [|discriminate]. destruct r as [|n r1]; [discriminate|].
  apply host_port_consumed in H. destruct H as [-> [rest E]]. exists rest. cbn [length]. lia.
Qed.

Lemma parse_socks5_udp_consumed : forall l hl,
  parse_socks5_udp l = Some hl -> exists rest : list N, length l = (N.to_nat hl + length rest)%nat.
Proof.
  intros l hl H. unfold parse_socks5_udp in H. destruct (Nat.leb (length l) 6); [discriminate|].
  destruct l as [|a [|b [|c r]]]; try discriminate.
  destruct (negb ((a =? 0) && (b =? 0))); [discriminate|]. destruct (negb (c =? 0)); [discriminate|].
  destruct (parse_socks5_addr r) as [[[[t h] p] used]|] eqn:Ea; [|discriminate].
  apply parse_socks5_addr_consumed in Ea. destruct Ea as [rest E]. injection H as <-.
  exists rest. cbn [length]. lia.
Qed.
