(* C10 — the invariant [wf] of an endpoint, and what readOneSegment returns ([read_one_yields]) *)
From Coq Require Import NArith List Bool.
From M Require Import model.Dispatch.
Import ListNotations.
Open Scope N_scope.

Lemma proto_numbers_distinct :
  NoDup [P_openReq; P_openResp; P_closeReq; P_closeResp; P_dataC2S; P_dataS2C; P_ackC2S; P_ackS2C; P_dataC2SLE; P_dataS2CLE].
Proof.
  (* by evaluation: nodup removes nothing *)
  match goal with |- NoDup ?l => exact (NoDup_nodup N.eq_dec l) end.
Qed.

Lemma session_dataack_disjoint : forall p, is_session_proto p = true -> is_dataack_proto p = false.
Proof.
  intros p H. unfold is_session_proto in H.
  destruct (N.eqb_spec p P_openReq) as [E|_]; [rewrite E; reflexivity|].
  destruct (N.eqb_spec p P_openResp) as [E|_]; [rewrite E; reflexivity|].
  destruct (N.eqb_spec p P_closeReq) as [E|_]; [rewrite E; reflexivity|].
  destruct (N.eqb_spec p P_closeResp) as [E|_]; [rewrite E; reflexivity | discriminate].
Qed.

Lemma ack_not_data : forall p, is_ack_proto p = true -> is_data_proto p = false /\ is_session_proto p = false.
Proof.
  intros p H. unfold is_ack_proto in H.
  destruct (N.eqb_spec p P_ackC2S) as [E|_]; [rewrite E; split; reflexivity|].
  destruct (N.eqb_spec p P_ackS2C) as [E|_]; [rewrite E; split; reflexivity | discriminate].
Qed.

Lemma data_is_dataack : forall p, is_data_proto p = true -> is_dataack_proto p = true.
Proof. intros p H. unfold is_dataack_proto. rewrite H. reflexivity. Qed.
Lemma ack_is_dataack : forall p, is_ack_proto p = true -> is_dataack_proto p = true.
Proof. intros p H. unfold is_dataack_proto. rewrite H. apply orb_true_r. Qed.

Lemma openreq_is_session : is_session_proto P_openReq = true. Proof. reflexivity. Qed.
Lemma openresp_is_session : is_session_proto P_openResp = true. Proof. reflexivity. Qed.
Lemma closereq_is_session : is_session_proto P_closeReq = true. Proof. reflexivity. Qed.
Lemma closeresp_is_session : is_session_proto P_closeResp = true. Proof. reflexivity. Qed.

(* underlay_stream.go:216/219 panic on an error whose type is NO_ERROR or UNKNOWN_ERROR *)
Definition typed_ok (err : goerr) : Prop :=
  get_error_type (Some err) <> NO_ERROR /\ get_error_type (Some err) <> UNKNOWN_ERROR.

(* cl: the underlay is a client; eu: its e_user. A client session has no policy; its cipher is the connection's
   (TCP) or unset (UDP). A server session is created (newSessionWithServerUserPolicy) with the policy of the
   registered user o that opened it; cipher and user name, once set, are o's; a TCP underlay serves one user. *)
Definition session_ok (cl tcp : bool) (eu : N) (s : session) : Prop :=
  s_client s = cl /\
  if cl then s_policy s = None /\ (s_block s = None \/ (tcp = true /\ s_block s = Some eu))
  else exists o, o <> 0 /\ s_policy s = Some o /\ (s_block s = None \/ s_block s = Some o) /\
                 (s_user s = 0 \/ s_user s = o) /\ (tcp = true -> o = eu).

Definition wf (e : endpoint) : Prop :=
  (is_client e = true -> e_user e <> 0) /\
  Forall (session_ok (is_client e) (is_tcp e) (e_user e)) (e_sessions e) /\
  NoDup (map s_id (e_sessions e)).

Definition kind_ok (g : segment) : Prop :=
  (is_session_proto (g_proto g) = true /\ g_kind g = KSession) \/
  (is_dataack_proto (g_proto g) = true /\ g_kind g = KDataAck).

(* cipher, policy and discovery flag as readOneSegment sets them: a client's segments come through the connection's
   cipher without a policy, a server's through a registered user's cipher with that user's policy (TCP: first
   segment only) *)
Definition auth_ok (e1 : endpoint) (blk : option N) (pol : N) (na : bool) : Prop :=
  if is_client e1 then pol = 0 /\ blk = (if is_tcp e1 then Some (e_user e1) else None)
  else exists u, u <> 0 /\ blk = Some u /\
                 (if is_tcp e1 then u = e_user e1 /\ pol = (if na then u else 0) else pol = u).

(* e1: the endpoint after the read *)
Definition seg_ok (e1 : endpoint) (g : segment) : Prop :=
  kind_ok g /\ auth_ok e1 (g_block g) (g_policy g) (g_new_auth g).

Lemma kind_ok_session_kind : forall g, kind_ok g -> is_session_proto (g_proto g) = true -> g_kind g = KSession.
Proof.
  intros g [[_ H]|[Hd _]] Hs; [exact H|]. rewrite (session_dataack_disjoint _ Hs) in Hd. discriminate.
Qed.

Lemma kind_ok_dataack_kind : forall g, kind_ok g -> is_dataack_proto (g_proto g) = true -> g_kind g = KDataAck.
Proof.
  intros g [[Hs _]|[_ H]] Hd; [|exact H]. rewrite (session_dataack_disjoint _ Hs) in Hd. discriminate.
Qed.

Lemma owner_of_policy : forall s o, s_policy s = Some o -> o <> 0 -> session_owner s = o.
Proof.
  intros s o Hp Ho. unfold session_owner. rewrite Hp. apply N.eqb_neq in Ho. rewrite !Ho. reflexivity.
Qed.

Lemma wf_session : forall e s, wf e -> In s (e_sessions e) -> session_ok (is_client e) (is_tcp e) (e_user e) s.
Proof. intros e s [_ [HF _]]. rewrite Forall_forall in HF. apply HF. Qed.

Lemma find_session_In : forall id l s, find_session id l = Some s -> In s l /\ s_id s = id.
Proof.
  induction l as [|a l IH]; simpl; intros s H; [discriminate|].
  destruct (N.eqb_spec (s_id a) id) as [E|E].
  - injection H as <-. auto.
  - apply IH in H. tauto.
Qed.

Lemma find_session_none : forall id l, find_session id l = None -> ~ In id (map s_id l).
Proof.
  induction l as [|a l IH]; simpl; intros H; [tauto|].
  destruct (N.eqb_spec (s_id a) id) as [E|E]; [discriminate|]. intros [H1|H1]; [exact (E H1) | exact (IH H H1)].
Qed.

Lemma put_session_ids : forall s' l, map s_id (put_session s' l) = map s_id l.
Proof.
  induction l as [|a l IH]; simpl; [reflexivity|].
  destruct (N.eqb_spec (s_id a) (s_id s')) as [E|E]; simpl; congruence.
Qed.

Lemma put_session_Forall : forall (P : session -> Prop) s' l, P s' -> Forall P l -> Forall P (put_session s' l).
Proof.
  induction l as [|a l IH]; simpl; intros Hs Hl; [constructor|].
  pose proof (Forall_inv Hl). pose proof (Forall_inv_tail Hl). destruct (s_id a =? s_id s'); constructor; auto.
Qed.

Lemma find_put_other : forall s' l id, id <> s_id s' -> find_session id (put_session s' l) = find_session id l.
Proof.
  induction l as [|a l IH]; simpl; intros id Hne; [reflexivity|].
  destruct (N.eqb_spec (s_id a) (s_id s')) as [E|E]; simpl.
  - rewrite E. apply not_eq_sym, N.eqb_neq in Hne. rewrite Hne. reflexivity.
  - rewrite IH by exact Hne. reflexivity.
Qed.

Lemma session_ok_user_irrelevant : forall cl eu eu' s, session_ok cl false eu s -> session_ok cl false eu' s.
Proof.
  intros cl eu eu' s [H1 H2]. split; auto. destruct cl.
  - destruct H2 as [Hp [Hb|[Hc _]]]; [auto|discriminate].
  - destruct H2 as [o [Ho [Hp [Hb [Hu _]]]]]. exists o. repeat split; auto. discriminate.
Qed.

Lemma fresh_tcp_server_empty : forall e, wf e -> is_client e = false -> is_tcp e = true -> e_user e = 0 -> e_sessions e = [].
Proof.
  intros e [_ [HF _]] Hc Ht Hu. rewrite Hc, Ht, Hu in HF.
  destruct (e_sessions e) as [|s l]; [reflexivity|]. apply Forall_inv in HF.
  destruct HF as [_ [o [Ho [_ [_ [_ H]]]]]]. destruct Ho. exact (H eq_refl).
Qed.

(* [yields P (read_one e w)] says three things at once: the read does not panic, an error it returns is typed,
   a segment it returns satisfies P *)
Definition yields (P : endpoint -> segment -> Prop) (r : read_result) : Prop :=
  match r with RSeg e1 g => P e1 g | RErr err => typed_ok err | RSkip => True | RPanic _ => False end.

Lemma kind_ok_session : forall w blk pol na, is_session_proto (w_proto w) = true -> kind_ok (mk_seg KSession w blk pol na).
Proof. intros. left. split; [assumption | reflexivity]. Qed.
Lemma kind_ok_dataack : forall w blk pol na, is_dataack_proto (w_proto w) = true -> kind_ok (mk_seg KDataAck w blk pol na).
Proof. intros. right. split; [assumption | reflexivity]. Qed.

(* the leaves of the two parsers: error constants of the model, and segments made by mk_seg *)
Local Hint Extern 1 (typed_ok _) => split; discriminate : core.
Local Hint Resolve kind_ok_session kind_ok_dataack : core.

(* a parser returns the endpoint unchanged and a segment of the right kind made from the cipher, policy and discovery
   flag it was given: what holds of every such segment holds of what it yields *)
Lemma tcp_parse_yields : forall (P : endpoint -> segment -> Prop) e1 w u pol na,
  (forall k, kind_ok (mk_seg k w (Some u) pol na) -> P e1 (mk_seg k w (Some u) pol na)) ->
  yields P (tcp_parse e1 w u pol na).
Proof.
  intros P e1 w u pol na H. unfold tcp_parse.
  destruct (negb (w_metalen_ok w)); [cbn; auto|].
  destruct (is_session_proto (w_proto w)) eqn:Es; [|destruct (is_dataack_proto (w_proto w)) eqn:Ed; [|cbn; auto]].
  - destruct (negb _); [cbn; auto|].
    (* of the five bodies only BodyBadTag depends on the payload length *)
    destruct (w_body w); [| | |destruct (0 <? w_payload_len w)|]; cbn [yields]; auto.
  - destruct (negb _); [cbn; auto|].
    (* here BodyLEBad too *)
    destruct (w_body w); [| | |destruct (0 <? w_payload_len w)|destruct (is_le_proto (w_proto w) && _)]; cbn [yields]; auto.
Qed.

(* parseSessionSegment / parseDataAckSegment assert that a server has a cipher before opening the payload *)
Lemma nil_block_guard : forall (blk : option N) (cl : bool) (x : site) (r : read_result),
  (cl = false -> blk <> None) -> match blk, cl with None, false => RPanic x | _, _ => r end = r.
Proof. intros [b|] [|] x r H; try reflexivity. now destruct H. Qed.

(* the packet parser clears the discovery flag of a segment that is not an open request *)
Lemma udp_parse_yields : forall (P : endpoint -> segment -> Prop) e w blk pol na, (is_client e = false -> blk <> None) ->
  (forall k na', kind_ok (mk_seg k w blk pol na') -> P e (mk_seg k w blk pol na')) ->
  yields P (udp_parse e w blk pol na).
Proof.
  (* [unfold] would copy the let-bound [finish] into every branch before the case splits *)
  intros P e w blk pol na Hb H. cbv beta delta [udp_parse].
  destruct (negb (w_metalen_ok w)); [exact I|].
  destruct (is_session_proto (w_proto w)) eqn:Es; [|destruct (is_dataack_proto (w_proto w)) eqn:Ed; [|exact I]].
  - destruct (negb _); [exact I|].
    set (finish := if na && _ then RSkip else _).
    assert (Hfin : yields P finish).
    { subst finish. destruct (na && negb _); [exact I|]. destruct (na && _ && _); cbn; auto. }
    (* every leaf skips the datagram, or is [finish], some behind the nil-cipher guard *)
    clearbody finish. destruct (0 <? w_payload_len w), (w_body w);
      rewrite ?nil_block_guard by exact Hb; try exact I; exact Hfin.
  - destruct (negb _); [exact I|].
    set (finish := if na && _ then RSkip else _).
    assert (Hfin : yields P finish).
    { subst finish. destruct (na && negb _); cbn; auto. }
    clearbody finish. destruct (0 <? w_payload_len w), (w_body w);
      rewrite ?nil_block_guard by exact Hb; try exact I; try exact Hfin.
    (* BodyLEBad with a payload *)
    destruct (is_le_proto (w_proto w)); [exact I | exact Hfin].
Qed.

(* the first segment of a server connection sets t.recv to the registered user u whose cipher opened it *)
Lemma fresh_server_auth : forall e u, wf e -> is_client e = false -> is_tcp e = true -> e_user e = 0 -> u <> 0 ->
  wf (with_user e u) /\ auth_ok (with_user e u) (Some u) u true.
Proof.
  intros e u H Hc Ht Hu Hu0. pose proof (fresh_tcp_server_empty e H Hc Ht Hu) as Hs.
  unfold wf, auth_ok, with_user, is_client, is_tcp in *. cbn [e_role e_tr e_user e_sessions]. rewrite Hs, Hc, Ht.
  split; [split; [discriminate|]; split; constructor|]. exists u. auto.
Qed.

(* e1 differs from e at most in e_user (TCP server: the first segment sets t.recv). [wf e] is a premise here and
   not of [read_one_yields]: no panic and typed errors hold of every endpoint *)
Definition read_ok (e e1 : endpoint) (g : segment) : Prop :=
  wf e -> wf e1 /\ seg_ok e1 g /\ e_role e1 = e_role e /\ e_tr e1 = e_tr e /\ e_sessions e1 = e_sessions e.

(* e' is the endpoint the parser was called with: e, or e with t.recv set *)
Lemma read_ok_mk_seg : forall e e' k w blk pol na,
  e_role e' = e_role e -> e_tr e' = e_tr e -> e_sessions e' = e_sessions e ->
  (wf e -> wf e' /\ auth_ok e' blk pol na) -> kind_ok (mk_seg k w blk pol na) -> read_ok e e' (mk_seg k w blk pol na).
Proof.
  intros e e' k w blk pol na Hr Ht Hs H Hk Hwf. destruct (H Hwf) as [Hwf' Ha].
  split; [exact Hwf'|]. split; [split; assumption | auto].
Qed.

Lemma read_one_yields : forall e w, yields (read_ok e) (read_one e w).
Proof.
  intros e w. unfold read_one. destruct (is_tcp e) eqn:Et.
  - unfold tcp_read. destruct (w_short w); [cbn; auto|].
    destruct (negb (is_client e) && (e_user e =? 0)) eqn:Efresh.
    + (* the first segment of a server connection *)
      apply andb_true_iff in Efresh. destruct Efresh as [Ecl Eu0]. apply negb_true_iff in Ecl. apply N.eqb_eq in Eu0.
      destruct (w_auth w) as [|sid|u]; [destruct (w_replay w); cbn; auto..|].
      destruct (N.eqb_spec u 0) as [Eu|Eu]; [destruct (w_replay w); cbn; auto|].
      destruct (w_replay w); [cbn; auto|].
      apply tcp_parse_yields. intros k. apply read_ok_mk_seg; try reflexivity. intros Hwf.
      apply fresh_server_auth; assumption.
    + assert (Y : yields (read_ok e) (tcp_parse e w (e_user e) 0 false)).
      { apply tcp_parse_yields. intros k. apply read_ok_mk_seg; try reflexivity. intros Hwf. split; [exact Hwf|]. unfold auth_ok.
        rewrite Et. destruct (is_client e); [auto|]. apply N.eqb_neq in Efresh. exists (e_user e). auto. }
      destruct (w_auth w); [cbn; auto | exact Y | exact Y].
  - unfold udp_read. destruct (is_client e) eqn:Ec.
    + destruct (negb (w_from_server w)); [exact I|]. destruct (w_short w); [exact I|].
      assert (Y : yields (read_ok e) (udp_parse e w None 0 false)).
      { apply udp_parse_yields; [congruence|]. intros k na. apply read_ok_mk_seg; try reflexivity. intros Hwf.
        split; [exact Hwf|]. unfold auth_ok. rewrite Ec, Et. auto. }
      destruct (w_auth w); [exact I | exact Y | exact Y].
    + destruct (w_short w); [exact I|].
      assert (Y : forall b pol na, (wf e -> b <> 0 /\ pol = b) ->
                  yields (read_ok e) (if w_replay w then RSkip else udp_parse e w (Some b) pol na)).
      { intros b pol na H. destruct (w_replay w); [exact I|].
        apply udp_parse_yields; [discriminate|]. intros k na'. apply read_ok_mk_seg; try reflexivity. intros Hwf.
        split; [exact Hwf|]. unfold auth_ok. destruct (H Hwf) as [Hb0 ->]. rewrite Ec, Et. exists b. auto. }
      destruct (w_auth w) as [|sid|u]; [exact I| |].
      * destruct (find_session sid (e_sessions e)) as [s|] eqn:Ef; [|exact I].
        destruct (s_block s) as [b|] eqn:Eb; [|exact I]. apply Y. intros Hwf.
        pose proof (wf_session e s Hwf (proj1 (find_session_In _ _ _ Ef))) as Hs. rewrite Ec in Hs.
        destruct Hs as [_ [o [Ho [Hp [Hbo _]]]]]. rewrite Hp.
        destruct Hbo as [Hbo|Hbo]; rewrite Hbo in Eb; [discriminate|]. injection Eb as <-. auto.
      * destruct (N.eqb_spec u 0); [exact I|]. apply Y. auto.
Qed.

Lemma read_one_ok : forall e w e1 g, wf e -> read_one e w = RSeg e1 g ->
  wf e1 /\ seg_ok e1 g /\ e_role e1 = e_role e /\ e_tr e1 = e_tr e /\ e_sessions e1 = e_sessions e.
Proof. intros e w e1 g Hwf H. pose proof (read_one_yields e w) as Y. rewrite H in Y. exact (Y Hwf). Qed.

Lemma read_one_error_typed : forall e w err, read_one e w = RErr err -> typed_ok err.
Proof. intros e w err H. pose proof (read_one_yields e w) as Y. rewrite H in Y. exact Y. Qed.
