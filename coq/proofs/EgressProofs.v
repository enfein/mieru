(* C12 - proofs about model/Egress.v: Go's byte tests decide the numeric sets of the property, the host the
   decision judges is read back into those sets, and the decision is one formula over the two *)
From Coq Require Import List NArith ZArith Bool Lia.
From Coq Require Import ZifyBool.
From M Require Import model.Egress.
Import ListNotations.
Open Scope N_scope.

Lemma bytes_eqb_eq a b : bytes_eqb a b = true <-> a = b.
Proof.
  revert b; induction a as [|x a IH]; destruct b as [|y b]; cbn [bytes_eqb]; split; intro H;
    try congruence.
  - apply andb_true_iff in H as [H1 H2]. apply N.eqb_eq in H1. apply IH in H2. congruence.
  - injection H as Hx Ha. subst y. rewrite N.eqb_refl. cbn [andb]. apply IH. exact Ha.
Qed.

Lemma mem_bytes_In s l : mem_bytes s l = true <-> In s l.
Proof.
  unfold mem_bytes. rewrite existsb_exists. split.
  - intros (x & Hin & He). apply bytes_eqb_eq in He. subst. exact Hin.
  - intro Hin. exists s. split; [exact Hin|]. apply bytes_eqb_eq. reflexivity.
Qed.

Lemma LocalName_mem s : LocalName s <->
  mem_bytes (strip_dot (ascii_lower s)) names4 || mem_bytes (strip_dot (ascii_lower s)) names6 = true.
Proof. unfold LocalName. rewrite in_app_iff, orb_true_iff, !mem_bytes_In. reflexivity. Qed.

Lemma bytes_ok_app a b : bytes_ok (a ++ b) <-> bytes_ok a /\ bytes_ok b.
Proof. unfold bytes_ok. apply Forall_app. Qed.

Lemma bytes_ok4 a b c d : bytes_ok [a; b; c; d] -> a < 256 /\ b < 256 /\ c < 256 /\ d < 256.
Proof.
  intro H. pose proof (Forall_inv H) as Ha. apply Forall_inv_tail in H.
  pose proof (Forall_inv H) as Hb. apply Forall_inv_tail in H.
  pose proof (Forall_inv H) as Hc. apply Forall_inv_tail in H.
  pose proof (Forall_inv H) as Hd. auto.
Qed.

Lemma len4 (v : bytes) : length v = 4%nat -> exists a b c d, v = [a; b; c; d].
Proof.
  destruct v as [|a [|b [|c [|d [|e t]]]]]; cbn [length]; intro H; try discriminate H.
  eauto.
Qed.

(* f holds of b, ..., b+n-1.  Counted with N.succ because coqchk checks the vm_compute sweeps below again by
   plain reduction, where N.of_nat of 256 unary numbers is dear. *)
Fixpoint holds_from (n : nat) (f : N -> bool) (b : N) : bool :=
  match n with
  | O => true
  | S k => f b && holds_from k f (N.succ b)
  end.

Lemma holds_from_spec n f : forall b, holds_from n f b = true ->
  forall x, b <= x < b + N.of_nat n -> f x = true.
Proof.
  induction n as [|n IH]; intros b H x Hx; [lia|].
  cbn [holds_from] in H. apply andb_true_iff in H as [Hb H].
  destruct (N.eq_dec x b) as [-> | Hne]; [exact Hb|].
  apply (IH (N.succ b) H). lia.
Qed.

Lemma byte_forall (f : N -> bool) : holds_from 256 f 0 = true -> forall b, b < 256 -> f b = true.
Proof. intros H b Hb. apply (holds_from_spec 256 f 0 H). split; [apply N.le_0_l | exact Hb]. Qed.

Lemma land240 b : b < 256 -> (N.land b 240 =? 16) = ((16 <=? b) && (b <? 32)).
Proof. intro Hb. apply eqb_prop. revert b Hb. apply byte_forall. vm_compute. reflexivity. Qed.

Lemma land254 b : b < 256 -> (N.land b 254 =? 252) = (b / 2 =? 126).
Proof. intro Hb. apply eqb_prop. revert b Hb. apply byte_forall. vm_compute. reflexivity. Qed.

Lemma to4_inv ip v : to4 ip = Some v -> length v = 4%nat /\ (ip = v \/ ip = mapped v).
Proof.
  intro H.
  destruct ip as [|b0 [|b1 [|b2 [|b3 [|b4 [|b5 [|b6 [|b7 [|b8 [|b9 [|b10 [|b11 [|b12 [|b13 [|b14 [|b15 [|b16 t]]]]]]]]]]]]]]]]];
    cbv beta iota delta [to4] in H; try discriminate H.
  - injection H as <-. split; [reflexivity | left; reflexivity].
  - match type of H with (if ?c then _ else _) = _ => destruct c eqn:E end; [|discriminate H].
    injection H as <-.
    (* the twelve prefix tests of to4 *)
    repeat match goal with Hc : _ && _ = true |- _ => apply andb_true_iff in Hc; destruct Hc end.
    repeat match goal with Hc : (_ =? _) = true |- _ => apply N.eqb_eq in Hc end.
    subst. split; [reflexivity | right; reflexivity].
Qed.

Lemma to4_4 v : length v = 4%nat -> to4 v = Some v.
Proof. intro H. apply len4 in H as (a & b & c & d & ->). reflexivity. Qed.

Lemma to4_mapped v : length v = 4%nat -> to4 (mapped v) = Some v.
Proof. intro H. apply len4 in H as (a & b & c & d & ->). reflexivity. Qed.

Lemma to4_none ip : length ip = 16%nat -> nth 0 ip 0 <> 0 -> to4 ip = None.
Proof.
  intros Hl Hb. destruct (to4 ip) as [v|] eqn:E; [|reflexivity].
  apply to4_inv in E as [Hv [-> | ->]].
  - rewrite Hv in Hl. discriminate Hl.
  - contradiction Hb. reflexivity.
Qed.

Lemma to4_ok ip v : bytes_ok ip -> to4 ip = Some v -> bytes_ok v.
Proof.
  intros Hok E. apply to4_inv in E as [_ [-> | ->]]; [exact Hok|].
  unfold mapped in Hok. apply bytes_ok_app in Hok. tauto.
Qed.

Lemma v4num_range16 a b c d lo hi : c < 256 -> d < 256 ->
  (lo * 2^16 <= v4num [a; b; c; d] < hi * 2^16 <-> lo <= a * 256 + b < hi).
Proof. intros. cbv beta iota delta [v4num]. change (2 ^ 16) with 65536. lia. Qed.

Lemma v4num_range24 a b c d lo hi : b < 256 -> c < 256 -> d < 256 ->
  (lo * 2^24 <= v4num [a; b; c; d] < hi * 2^24 <-> lo <= a < hi).
Proof. intros. cbv beta iota delta [v4num]. change (2 ^ 24) with 16777216. lia. Qed.

Lemma and_iff_under (A B C : Prop) : (A -> (B <-> C)) -> (A /\ B <-> A /\ C).
Proof. tauto. Qed.

Lemma v4_loopback_iff v : V4Loopback v <-> length v = 4%nat /\ bytes_ok v /\ nth 0 v 0 = 127.
Proof.
  unfold V4Loopback. apply and_iff_under. intro Hl. apply and_iff_under. intro Hok.
  apply len4 in Hl as (a & b & c & d & ->). apply bytes_ok4 in Hok as (Ha & Hb & Hc & Hd).
  cbn [nth]. rewrite (v4num_range24 a b c d 127 128 Hb Hc Hd). lia.
Qed.

Lemma orb3_iff (x y z : bool) (X Y Z : Prop) :
  (x = true <-> X) -> (y = true <-> Y) -> (z = true <-> Z) -> (x || y || z = true <-> X \/ Y \/ Z).
Proof. intros <- <- <-. rewrite !orb_true_iff. tauto. Qed.

(* 10/8, 172.16/12 and 192.168/16, each against the test net.IP.IsPrivate makes for it *)
Lemma v4_private_iff v : V4Private v <-> length v = 4%nat /\ bytes_ok v /\
  (nth 0 v 0 =? 10) || ((nth 0 v 0 =? 172) && (N.land (nth 1 v 0) 240 =? 16)) ||
  ((nth 0 v 0 =? 192) && (nth 1 v 0 =? 168)) = true.
Proof.
  unfold V4Private. apply and_iff_under. intro Hl. apply and_iff_under. intro Hok.
  apply len4 in Hl as (a & b & c & d & ->). apply bytes_ok4 in Hok as (Ha & Hb & Hc & Hd).
  cbn [nth]. symmetry. apply orb3_iff.
  - rewrite (v4num_range24 a b c d 10 11 Hb Hc Hd). lia.
  - rewrite (land240 b Hb), (v4num_range16 a b c d _ _ Hc Hd). lia.
  - rewrite (v4num_range16 a b c d _ _ Hc Hd). lia.
Qed.

Lemma loop_sound ip : LoopbackIP ip -> is_loopback ip = true.
Proof.
  unfold is_loopback. intros [v H | v H | ].
  - apply v4_loopback_iff in H as (Hl & _ & H). rewrite (to4_4 v Hl). apply N.eqb_eq. exact H.
  - apply v4_loopback_iff in H as (Hl & _ & H). rewrite (to4_mapped v Hl). apply N.eqb_eq. exact H.
  - reflexivity.
Qed.

Lemma priv_sound ip : PrivateIP ip -> is_private ip = true.
Proof.
  unfold is_private. intros [v H | v H | ip' Hl Hok Hd].
  - apply v4_private_iff in H as (Hl & _ & H). rewrite (to4_4 v Hl). exact H.
  - apply v4_private_iff in H as (Hl & _ & H). rewrite (to4_mapped v Hl). exact H.
  - (* fc00::/7: the first byte is 252 or 253, so the address is not a mapped one *)
    destruct ip' as [|b0 t]; [discriminate Hl|]. cbn [nth] in Hd.
    rewrite (to4_none (b0 :: t) Hl) by (cbn [nth]; intros ->; discriminate Hd).
    cbn [nth]. rewrite Hl, (land254 b0 (Forall_inv Hok)), Hd. reflexivity.
Qed.

Lemma unspec_sound ip : UnspecIP ip -> is_unspecified ip = true.
Proof. intros []; reflexivity. Qed.

Lemma loop_complete ip : bytes_ok ip -> is_loopback ip = true -> LoopbackIP ip.
Proof.
  intros Hok H. unfold is_loopback in H. destruct (to4 ip) as [v|] eqn:E.
  - assert (HV : V4Loopback v).
    { apply v4_loopback_iff. apply N.eqb_eq in H. pose proof (to4_ok ip v Hok E). apply to4_inv in E. tauto. }
    apply to4_inv in E as [_ [-> | ->]]; [apply LI_v4 | apply LI_mapped]; exact HV.
  - apply bytes_eqb_eq in H. subst ip. apply LI_v6.
Qed.

Lemma priv_complete ip : bytes_ok ip -> is_private ip = true -> PrivateIP ip.
Proof.
  intros Hok H. unfold is_private in H. destruct (to4 ip) as [v|] eqn:E.
  - assert (HV : V4Private v).
    { apply v4_private_iff. pose proof (to4_ok ip v Hok E). apply to4_inv in E. tauto. }
    apply to4_inv in E as [_ [-> | ->]]; [apply PI_v4 | apply PI_mapped]; exact HV.
  - apply andb_true_iff in H as [Hl Hb]. apply Nat.eqb_eq in Hl.
    destruct ip as [|b0 t]; [discriminate Hl|]. cbn [nth] in Hb.
    rewrite (land254 b0 (Forall_inv Hok)) in Hb. apply N.eqb_eq in Hb.
    apply PI_v6; [exact Hl | exact Hok | exact Hb].
Qed.

Lemma unspec_complete ip : is_unspecified ip = true -> UnspecIP ip.
Proof.
  intro H. unfold is_unspecified in H. destruct (to4 ip) as [v|] eqn:E.
  - apply bytes_eqb_eq in H. subst v. apply to4_inv in E as [_ [-> | ->]]; constructor.
  - apply bytes_eqb_eq in H. subst ip. constructor.
Qed.

Lemma loop_not_priv ip : is_loopback ip = true -> is_private ip = false.
Proof.
  unfold is_loopback, is_private. destruct (to4 ip) as [v|] eqn:E; intro H.
  - apply N.eqb_eq in H. cbv zeta. rewrite H. reflexivity.
  - apply bytes_eqb_eq in H. subst ip. reflexivity.
Qed.

Lemma unspec_not_priv ip : is_unspecified ip = true -> is_private ip = false.
Proof. intro H. apply unspec_complete in H. destruct H; reflexivity. Qed.

(* the two addresses host_ip substitutes for names: 127.0.0.1 as net.ParseIP gives it, and ::1 *)
Lemma loop_const_facts h : h = v4loop16 \/ h = v6loop ->
  is_unspecified h = false /\ is_loopback h = true /\ is_private h = false.
Proof. intros [-> | ->]; repeat split; reflexivity. Qed.

Lemma is_private_nil : is_private [] = false. Proof. reflexivity. Qed.
Lemma is_loopback_nil : is_loopback [] = false. Proof. reflexivity. Qed.
Lemma is_unspecified_nil : is_unspecified [] = false. Proof. reflexivity. Qed.

(* what parse_request guarantees of an address read from wire bytes (below 256): not both an IP and a name.
   Only the converse direction (eff_*_complete, not_reject) asks for it. *)
Definition wf_addr (a : addr) : Prop := bytes_ok (a_ip a) /\ (a_ip a = [] \/ a_fqdn a = []).

Lemma take_spec n l x r : take n l = Some (x, r) -> l = x ++ r /\ length x = n.
Proof.
  revert l x r. induction n as [|n IH]; intros l x r H; cbn [take] in H.
  - injection H as <- <-. auto.
  - destruct l as [|y l]; [discriminate H|]. destruct (take n l) as [[a b]|] eqn:E; [|discriminate H].
    injection H as <- <-. apply IH in E as [-> <-]. auto.
Qed.

Lemma take_app n x r : length x = n -> take n (x ++ r) = Some (x, r).
Proof. intros <-. induction x as [|y x IH]; cbn [take length app]; [reflexivity|]. rewrite IH. reflexivity. Qed.

(* k bytes and the two port bytes behind them: what follows the address type (and the length byte of a name)
   in AddrSpec.ReadFromSocks5 *)
Definition field (k : nat) (mk : bytes -> addr) (r : bytes) : option (addr * bytes) :=
  match take k r with
  | Some (x, r1) => match take 2 r1 with Some (_, r2) => Some (mk x, r2) | None => None end
  | None => None
  end.

Lemma field_inv k mk r a rest : field k mk r = Some (a, rest) ->
  exists x c, r = c ++ rest /\ a = mk x /\ (bytes_ok c -> bytes_ok x) /\
              forall more, field k mk (c ++ more) = Some (a, more).
Proof.
  unfold field. destruct (take k r) as [[x r1]|] eqn:T1; [|discriminate].
  destruct (take 2 r1) as [[pt r2]|] eqn:T2; [|discriminate]. intro H. injection H as <- <-.
  apply take_spec in T1 as [-> L1]. apply take_spec in T2 as [-> L2].
  exists x, (x ++ pt). split; [apply app_assoc|]. split; [reflexivity|]. split.
  - intro Hok. apply bytes_ok_app in Hok. tauto.
  - intro more. rewrite <- app_assoc, (take_app k x _ L1), (take_app 2 pt _ L2). reflexivity.
Qed.

(* every branch of parse_addr is a fixed header (the type byte, for a name also the length byte) and a field *)
Lemma parse_addr_field l p : parse_addr l = Some p ->
  exists hdr k mk r, l = hdr ++ r /\ (forall r', parse_addr (hdr ++ r') = field k mk r') /\
                     (forall x, bytes_ok x -> wf_addr (mk x)).
Proof.
  assert (Hip : forall x, bytes_ok x -> wf_addr (mkAddr x [])) by (split; [assumption | right; reflexivity]).
  assert (Hname : forall x, bytes_ok x -> wf_addr (mkAddr [] x)) by (split; [constructor | left; reflexivity]).
  destruct l as [|t r]; [discriminate|]. cbn [parse_addr].
  destruct (t =? ATYP4) eqn:E4; [|destruct (t =? ATYP6) eqn:E6; [|destruct (t =? ATYPD) eqn:ED; [|discriminate]]].
  - intros _. exists [t], 4%nat, (fun ip => mkAddr ip []), r. split; [reflexivity|]. split; [|exact Hip].
    intro r'. cbn [app parse_addr]. rewrite E4. reflexivity.
  - intros _. exists [t], 16%nat, (fun ip => mkAddr ip []), r. split; [reflexivity|]. split; [|exact Hip].
    intro r'. cbn [app parse_addr]. rewrite E4, E6. reflexivity.
  - destruct r as [|n r0]; [discriminate|].
    intros _. exists [t; n], (N.to_nat n), (mkAddr []), r0. split; [reflexivity|]. split; [|exact Hname].
    intro r'. cbn [app parse_addr]. rewrite E4, E6, ED. reflexivity.
Qed.

Lemma parse_addr_prefix l a rest : parse_addr l = Some (a, rest) ->
  exists c, l = c ++ rest /\ (bytes_ok c -> wf_addr a) /\ forall more, parse_addr (c ++ more) = Some (a, more).
Proof.
  intro H. destruct (parse_addr_field l _ H) as (hdr & k & mk & r & -> & Hf & Hwf).
  rewrite Hf in H. apply field_inv in H as (x & c & -> & -> & Hok & Hm).
  exists (hdr ++ c). split; [apply app_assoc|]. split.
  - intro Hc. apply Hwf, Hok. apply bytes_ok_app in Hc. tauto.
  - intro more. rewrite <- app_assoc, Hf. apply Hm.
Qed.

Lemma parse_request_wf data cmd a : bytes_ok data -> parse_request data = Some (cmd, a) -> wf_addr a.
Proof.
  unfold parse_request. destruct data as [|v [|c [|z r]]]; try discriminate. intro Hok.
  do 3 apply Forall_inv_tail in Hok.
  destruct (v =? VER); [|discriminate]. destruct (parse_addr r) as [[a' rest]|] eqn:E; [|discriminate].
  intro H. injection H as _ <-. apply parse_addr_prefix in E as (p & -> & Hwf & _).
  apply Hwf. apply bytes_ok_app in Hok. tauto.
Qed.

Definition is_conn_or_assoc (cmd : N) : Prop := cmd = CMD_CONNECT \/ cmd = CMD_ASSOC.

(* lit: any reading of domain strings as IP literals.  Lemmas about the sets of the property fix fx = true (the
   model with fixes/C12-domain-literal.diff); the others hold for either fx. *)

Section Lit.
Variable lit : bytes -> option bytes.

Lemma host_ip_name fq : lit fq = None ->
  match host_ip true lit (mkAddr [] fq) with
  | Some h => (fq = [] \/ LocalName fq) /\ (h = v4loop16 \/ h = v6loop)
  | None => fq <> [] /\ ~ LocalName fq
  end.
Proof.
  intro EL. unfold host_ip. cbn [a_ip a_fqdn]. rewrite EL. cbv zeta.
  pose proof (LocalName_mem fq) as HN.
  destruct fq as [|c d]; [split; left; reflexivity|].
  (* expose the cons of ascii_lower (c :: d) so that host_ip's match on it reduces; in HN too, so that the
     destructs below rewrite goal and HN alike *)
  unfold ascii_lower in *. cbn [map] in *.
  destruct (mem_bytes (strip_dot (lower_byte c :: map lower_byte d)) names4).
  - split; [right; apply HN; reflexivity | left; reflexivity].
  - destruct (mem_bytes (strip_dot (lower_byte c :: map lower_byte d)) names6).
    + split; [right; apply HN; reflexivity | right; reflexivity].
    + split; [discriminate | intro H; apply HN in H; discriminate H].
Qed.

Lemma host_ip_of_hostis a ip : HostIs lit a ip -> ip <> [] -> host_ip true lit a = Some ip.
Proof.
  destruct a as [aip fq]. unfold HostIs, host_ip. cbn [a_ip a_fqdn]. intros [[-> ->] | [-> EL]] Hne.
  - destruct ip as [|b t]; [contradiction Hne; reflexivity | reflexivity].
  - rewrite EL. reflexivity.
Qed.

Lemma effective_ip_host fx cmd a h : host_ip fx lit a = Some h ->
  effective_ip fx lit cmd a = if is_unspecified h && (cmd =? CMD_CONNECT) then Some v4loop16 else Some h.
Proof. intro Hh. unfold effective_ip. rewrite Hh. reflexivity. Qed.

Lemma effective_ip_none fx cmd a : host_ip fx lit a = None -> effective_ip fx lit cmd a = None.
Proof. intro Hh. unfold effective_ip. rewrite Hh. reflexivity. Qed.

Lemma eff_of_const cmd ip : ip = v4loop16 \/ ip = v6loop ->
  (if is_unspecified ip && (cmd =? CMD_CONNECT) then Some v4loop16 else Some ip) = Some ip.
Proof. intro H. destruct (loop_const_facts ip H) as (Hu & _ & _). rewrite Hu. reflexivity. Qed.

(* Go computes the name test before netip.ParseAddr and lets a literal win; the model asks lit first.  lit_sane
   makes the two agree: a lit that read a well-known name as an address would bypass the name test. *)
Lemma effective_ip_local cmd a : lit_sane lit -> a_ip a = [] -> a_fqdn a = [] \/ LocalName (a_fqdn a) ->
  exists ip, effective_ip true lit cmd a = Some ip /\ is_loopback ip = true.
Proof.
  destruct a as [aip fq]. cbn [a_ip a_fqdn]. intros [H0 Hn] -> Hloc.
  assert (EL : lit fq = None).
  { destruct Hloc as [-> | HN]; [exact H0|]. destruct (lit fq) as [l|] eqn:EL; [|reflexivity].
    contradiction (Hn fq l EL HN). }
  pose proof (host_ip_name fq EL) as H. destruct (host_ip true lit (mkAddr [] fq)) as [h|] eqn:Eh.
  - destruct H as [_ Hc]. destruct (loop_const_facts h Hc) as (_ & Hl & _).
    exists h. rewrite (effective_ip_host true cmd _ h Eh). split; [apply eff_of_const, Hc | exact Hl].
  - destruct H as [Hne HnN]. destruct Hloc; contradiction.
Qed.

Lemma host_ip_inv a h : wf_addr a -> lit_bytes_ok lit -> host_ip true lit a = Some h ->
  (HostIs lit a h /\ bytes_ok h) \/
  (a_ip a = [] /\ (a_fqdn a = [] \/ LocalName (a_fqdn a)) /\ (h = v4loop16 \/ h = v6loop)).
Proof.
  destruct a as [ip fq]. unfold wf_addr, HostIs. cbn [a_ip a_fqdn]. intros [Hok Hx] Hlb.
  destruct ip as [|b t].
  - destruct (lit fq) as [l|] eqn:EL.
    + unfold host_ip. cbn [a_ip a_fqdn]. rewrite EL. intro H. injection H as <-.
      left. split; [right; auto | exact (Hlb fq l EL)].
    + intro H. pose proof (host_ip_name fq EL) as Hn. rewrite H in Hn. right. split; [reflexivity | exact Hn].
  - intro H. injection H as <-. left. split; [|exact Hok].
    left. split; [reflexivity|]. destruct Hx as [Hx | Hx]; [discriminate Hx | exact Hx].
Qed.

Lemma effective_ip_of_hostis cmd a ip : HostIs lit a ip -> ip <> [] ->
  effective_ip true lit cmd a = if is_unspecified ip && (cmd =? CMD_CONNECT) then Some v4loop16 else Some ip.
Proof. intros HH Hne. apply effective_ip_host, host_ip_of_hostis; assumption. Qed.

Lemma LoopDest_ip cmd a ip : HostIs lit a ip -> LoopbackIP ip -> LoopDest lit cmd a.
Proof. left. eauto. Qed.
Lemma LoopDest_empty cmd a : a_ip a = [] -> a_fqdn a = [] -> LoopDest lit cmd a.
Proof. right. left. auto. Qed.
Lemma LoopDest_name cmd a : a_ip a = [] -> LocalName (a_fqdn a) -> LoopDest lit cmd a.
Proof. right. right. left. auto. Qed.
Lemma LoopDest_unspec a ip : HostIs lit a ip -> UnspecIP ip -> LoopDest lit CMD_CONNECT a.
Proof. right. right. right. eauto. Qed.

Lemma effective_ip_inv cmd a ip : wf_addr a -> lit_bytes_ok lit -> effective_ip true lit cmd a = Some ip ->
  (exists h, HostIs lit a h /\ UnspecIP h /\ cmd = CMD_CONNECT /\ ip = v4loop16) \/
  (HostIs lit a ip /\ bytes_ok ip) \/
  (a_ip a = [] /\ (a_fqdn a = [] \/ LocalName (a_fqdn a)) /\ (ip = v4loop16 \/ ip = v6loop)).
Proof.
  intros Hwf Hlb He. destruct (host_ip true lit a) as [h|] eqn:Eh.
  2:{ rewrite (effective_ip_none true cmd a Eh) in He. discriminate He. }
  rewrite (effective_ip_host true cmd a h Eh) in He.
  destruct (host_ip_inv a h Hwf Hlb Eh) as [[HH Hok] | (Hi & Hloc & Hc)].
  - destruct (is_unspecified h && (cmd =? CMD_CONNECT)) eqn:E; injection He as <-.
    + apply andb_true_iff in E as [Eu Ec]. apply unspec_complete in Eu. apply N.eqb_eq in Ec.
      left. exists h. auto.
    + right. left. auto.
  - rewrite (eff_of_const cmd h Hc) in He. injection He as <-. right. right. auto.
Qed.

Lemma eff_loop_sound cmd a : lit_sane lit -> LoopDest lit cmd a ->
  exists ip, effective_ip true lit cmd a = Some ip /\ is_loopback ip = true.
Proof.
  intros Hs [(ip & HH & HL) | [[Hi Hf] | [[Hi HN] | (ip & HH & HU & ->)]]].
  - apply loop_sound in HL. rewrite (effective_ip_of_hostis cmd a ip HH) by (intros ->; rewrite is_loopback_nil in HL; discriminate HL).
    destruct (is_unspecified ip && (cmd =? CMD_CONNECT)); [exists v4loop16 | exists ip]; auto.
  - exact (effective_ip_local cmd a Hs Hi (or_introl Hf)).
  - exact (effective_ip_local cmd a Hs Hi (or_intror HN)).
  - apply unspec_sound in HU. rewrite (effective_ip_of_hostis _ a ip HH) by (intros ->; rewrite is_unspecified_nil in HU; discriminate HU).
    rewrite HU, N.eqb_refl. exists v4loop16. auto.
Qed.

Lemma eff_priv_sound cmd a : PrivDest lit a ->
  exists ip, effective_ip true lit cmd a = Some ip /\ is_private ip = true.
Proof.
  intros (ip & HH & HP). apply priv_sound in HP. exists ip. split; [|exact HP].
  rewrite (effective_ip_of_hostis cmd a ip HH) by (intros ->; rewrite is_private_nil in HP; discriminate HP).
  destruct (is_unspecified ip) eqn:Eu; [|reflexivity]. apply unspec_not_priv in Eu. congruence.
Qed.

Lemma eff_loop_complete cmd a ip : wf_addr a -> lit_bytes_ok lit ->
  effective_ip true lit cmd a = Some ip -> is_loopback ip = true -> LoopDest lit cmd a.
Proof.
  intros Hwf Hlb He Hl.
  destruct (effective_ip_inv cmd a ip Hwf Hlb He) as [(h & HH & HU & -> & _) | [[HH Hok] | (Hi & [Hf | HN] & _)]].
  - exact (LoopDest_unspec a h HH HU).
  - exact (LoopDest_ip cmd a ip HH (loop_complete ip Hok Hl)).
  - exact (LoopDest_empty cmd a Hi Hf).
  - exact (LoopDest_name cmd a Hi HN).
Qed.

Lemma eff_priv_complete cmd a ip : wf_addr a -> lit_bytes_ok lit ->
  effective_ip true lit cmd a = Some ip -> is_private ip = true -> PrivDest lit a.
Proof.
  intros Hwf Hlb He Hp.
  destruct (effective_ip_inv cmd a ip Hwf Hlb He) as [(_ & _ & _ & _ & ->) | [[HH Hok] | (_ & _ & Hc)]].
  - discriminate Hp.
  - exists ip. split; [exact HH | exact (priv_complete ip Hok Hp)].
  - destruct (loop_const_facts ip Hc) as (_ & _ & Hn). congruence.
Qed.

(* rejectPrivateAndLoopbackIPAction as one formula; the two byte tests exclude each other, so its chain of
   conditions reads off the class of the judged IP *)
Lemma reject_local_eq fx cfg uname cmd a : reject_local fx lit cfg uname cmd a =
  match effective_ip fx lit cmd a with
  | None => false
  | Some ip => is_loopback ip && negb (c_allow_loop_dest cfg) && negb (user_loop cfg uname) ||
               is_private ip && negb (user_priv cfg uname)
  end.
Proof.
  unfold reject_local, user_loop, user_priv. destruct (effective_ip fx lit cmd a) as [ip|]; [|reflexivity].
  cbv zeta. destruct (is_loopback ip) eqn:El.
  - rewrite (loop_not_priv ip El). destruct (c_allow_loop_dest cfg); [reflexivity|].
    destruct (find_user cfg uname) as [u|]; [destruct (u_loop u)|]; reflexivity.
  - destruct (is_private ip); [|reflexivity].
    destruct (find_user cfg uname) as [u|]; [destruct (u_priv u)|]; reflexivity.
Qed.

Lemma reject_loop cfg uname cmd a : lit_sane lit ->
  LoopDest lit cmd a -> c_allow_loop_dest cfg = false -> user_loop cfg uname = false ->
  reject_local true lit cfg uname cmd a = true.
Proof.
  intros Hs HL Hc Hu. destruct (eff_loop_sound cmd a Hs HL) as (ip & He & Hl).
  rewrite reject_local_eq, He, Hl, Hc, Hu. reflexivity.
Qed.

Lemma reject_priv cfg uname cmd a :
  PrivDest lit a -> user_priv cfg uname = false -> reject_local true lit cfg uname cmd a = true.
Proof.
  intros HP Hu. destruct (eff_priv_sound cmd a HP) as (ip & He & Hp).
  rewrite reject_local_eq, He, Hp, Hu. apply orb_true_r.
Qed.

Lemma not_reject cfg uname cmd a : wf_addr a -> lit_bytes_ok lit ->
  (LoopDest lit cmd a -> user_loop cfg uname = true \/ c_allow_loop_dest cfg = true) ->
  (PrivDest lit a -> user_priv cfg uname = true) ->
  reject_local true lit cfg uname cmd a = false.
Proof.
  intros Hwf Hlb HL HP. rewrite reject_local_eq.
  destruct (effective_ip true lit cmd a) as [ip|] eqn:He; [|reflexivity]. apply orb_false_iff. split.
  - destruct (is_loopback ip) eqn:El; [|reflexivity].
    destruct (HL (eff_loop_complete cmd a ip Hwf Hlb He El)) as [Hu | Hc].
    + rewrite Hu. apply andb_false_r.
    + rewrite Hc. reflexivity.
  - destruct (is_private ip) eqn:Ep; [|reflexivity].
    rewrite (HP (eff_priv_complete cmd a ip Hwf Hlb He Ep)). reflexivity.
Qed.

Lemma find_action_request fx cfg uname data idx cmd a :
  parse_request data = Some (cmd, a) -> is_conn_or_assoc cmd ->
  find_action fx lit cfg true uname data idx =
  if reject_local fx lit cfg uname cmd a then (ACT_REJECT, None) else rules_action cfg a idx.
Proof.
  intros Hp Hc. unfold find_action, decide. rewrite Hp.
  destruct Hc as [-> | ->]; rewrite N.eqb_refl; [reflexivity | rewrite orb_true_r; reflexivity].
Qed.

Lemma firstn_consumed (c rest : bytes) : firstn (length (c ++ rest) - length rest) (c ++ rest) = c.
Proof. rewrite app_length, Nat.add_sub, firstn_app, Nat.sub_diag, firstn_all, firstn_O. apply app_nil_r. Qed.

Lemma bad_not_sent (stop : bool) a (P : Prop) : (if stop then RStop else RDropped) = RSent a -> P.
Proof. destruct stop; discriminate. Qed.

Lemma relay_step_eq fx cfg uname stop r0 r1 frag r :
  relay_step fx lit cfg uname stop (r0 :: r1 :: frag :: r) =
  if (3 <? length r)%nat && (r0 =? 0) && (r1 =? 0) && (frag =? 0)
  then match parse_addr r with
       | Some (a, rest) =>
         if fst (find_action fx lit cfg true uname
                   (VER :: CMD_CONNECT :: 0 :: firstn (length r - length rest) r) 0) =? ACT_REJECT
         then RDropped
         else match a_ip a, a_fqdn a with [], [] => RDropped | _, _ => RSent a end
       | None => if stop then RStop else RDropped
       end
  else if stop then RStop else RDropped.
Proof.
  unfold relay_step. change (length (r0 :: r1 :: frag :: r) <=? 6)%nat with (length r <=? 3)%nat.
  rewrite Nat.ltb_antisym. destruct (length r <=? 3)%nat; [reflexivity|].
  destruct (r0 =? 0); [|reflexivity]. destruct (r1 =? 0); [|reflexivity]. destruct (frag =? 0); reflexivity.
Qed.

Lemma relay_step_sent fx cfg uname stop pkt a : relay_step fx lit cfg uname stop pkt = RSent a ->
  exists data, parse_request data = Some (CMD_CONNECT, a) /\
               fst (find_action fx lit cfg true uname data 0) <> ACT_REJECT.
Proof.
  (* on fewer than three bytes relay_step computes to the `if stop` of bad_not_sent; the conjunction destructed
     next is the whole test of relay_step_eq *)
  destruct pkt as [|r0 [|r1 [|frag r]]]; try apply bad_not_sent. rewrite relay_step_eq.
  destruct (_ && _); [|apply bad_not_sent].
  destruct (parse_addr r) as [[a' rest]|] eqn:E; [|apply bad_not_sent].
  apply parse_addr_prefix in E as (c & -> & _ & Ec). rewrite firstn_consumed.
  destruct (fst (find_action fx lit cfg true uname (VER :: CMD_CONNECT :: 0 :: c) 0) =? ACT_REJECT) eqn:Er;
    [discriminate|].
  intro H. assert (a' = a) as ->.
  { destruct (a_ip a'); destruct (a_fqdn a'); try discriminate H; injection H as <-; reflexivity. }
  exists (VER :: CMD_CONNECT :: 0 :: c). split.
  - unfold parse_request. rewrite N.eqb_refl, <- (app_nil_r c), Ec. reflexivity.
  - apply N.eqb_neq. exact Er.
Qed.

Lemma relay_run_in fx cfg uname stop pkts a : In a (relay_run fx lit cfg uname stop pkts) ->
  Exists (fun pkt => relay_step fx lit cfg uname stop pkt = RSent a) pkts.
Proof.
  induction pkts as [|p ps IH]; cbn [relay_run]; [intros []|].
  destruct (relay_step fx lit cfg uname stop p) as [a'| |] eqn:E.
  - intros [<- | Hin]; [apply Exists_cons_hd, E | apply Exists_cons_tl, IH, Hin].
  - intro Hin. apply Exists_cons_tl, IH, Hin.
  - intros [].
Qed.

End Lit.

Lemma first_match_skip a rs1 rs2 : (forall r, In r rs1 -> match_rule a r = false) ->
  first_match a (rs1 ++ rs2) = first_match a rs2.
Proof.
  induction rs1 as [|x rs1 IH]; intro Hn; cbn [app first_match]; [reflexivity|].
  rewrite (Hn x (or_introl eq_refl)). apply IH. intros r Hin. apply Hn. right. exact Hin.
Qed.

Lemma first_match_none a rs : (forall r, In r rs -> match_rule a r = false) -> first_match a rs = None.
Proof. intro Hn. rewrite <- (app_nil_r rs). apply (first_match_skip a rs [] Hn). Qed.

(* the guard of rules_action changes nothing: the empty host meets no rule *)
Lemma rules_action_eq cfg a idx : rules_action cfg a idx =
  match first_match a (c_rules cfg) with Some r => rule_result cfg r idx | None => (ACT_DIRECT, None) end.
Proof.
  unfold rules_action. destruct (a_ip a) eqn:Ei; [destruct (a_fqdn a) eqn:Ef|]; try reflexivity.
  rewrite first_match_none; [reflexivity|]. intros r _. unfold match_rule. rewrite Ei, Ef. reflexivity.
Qed.

Definition no_lit : bytes -> option bytes := fun _ => None.

Lemma no_lit_sane : lit_sane no_lit.
Proof. split; [reflexivity | intros s ip H; discriminate H]. Qed.
Lemma no_lit_ok : lit_bytes_ok no_lit.
Proof. intros s ip H. discriminate H. Qed.

Definition assoc_unspec_witness : bytes := [5; 3; 0; 1; 0; 0; 0; 0; 0; 0].
Definition empty_cfg : config := mkConfig false [] [] [].

Definition s_127_0_0_1 : bytes := [49; 50; 55; 46; 48; 46; 48; 46; 49].
Definition lit_127 : bytes -> option bytes := fun s => if bytes_eqb s s_127_0_0_1 then Some [127; 0; 0; 1] else None.
Definition req_lit_127 : bytes := [5; 1; 0; 3; 9] ++ s_127_0_0_1 ++ [0; 80].
Definition s_localhost_dot : bytes := [108; 111; 99; 97; 108; 104; 111; 115; 116; 46].
Definition req_localhost_dot : bytes := [5; 1; 0; 3; 10] ++ s_localhost_dot ++ [0; 80].

Lemma v4_127_0_0_1_loopback : LoopbackIP [127; 0; 0; 1].
Proof. apply LI_v4, v4_loopback_iff. repeat split. repeat constructor. Qed.

Lemma lit_127_sane : lit_sane lit_127.
Proof.
  split; [reflexivity|]. intros s ip H HN. unfold lit_127 in H.
  destruct (bytes_eqb s s_127_0_0_1) eqn:E; [|discriminate H]. apply bytes_eqb_eq in E. subst s.
  apply LocalName_mem in HN. discriminate HN.
Qed.
Lemma lit_127_ok : lit_bytes_ok lit_127.
Proof.
  intros s ip H. unfold lit_127 in H. destruct (bytes_eqb s s_127_0_0_1); [|discriminate H].
  injection H as <-. repeat constructor.
Qed.

(* the requests of C12_domain_literal_refuted_before_fix on the fixed model *)
Example ex_literal_fixed :
  find_action true lit_127 empty_cfg true [] req_lit_127 0 = (ACT_REJECT, None) /\
  find_action true no_lit empty_cfg true [] req_localhost_dot 0 = (ACT_REJECT, None).
Proof. split; reflexivity. Qed.

Definition s_LoCaLhOsT : bytes := [76; 111; 67; 97; 76; 104; 79; 115; 84].
Definition req_name : bytes := [5; 1; 0; 3; 9] ++ s_LoCaLhOsT ++ [0; 80].
Definition u_alice : bytes := [97].
Definition u_bob : bytes := [98].
Definition cfg_ex : config :=
  mkConfig false
    [(u_alice, mkUser false false); (u_bob, mkUser true true)]
    [ mkRule [IpCidr [8;8;0;0] 16] [] ACT_REJECT [];
      mkRule [IpCidr [8;0;0;0] 8; IpStar] [[101;120;97;109;112;108;101;46;99;111;109]] ACT_PROXY [[112]];
      mkRule [] [STAR] ACT_REJECT [] ]
    [[112]].

(* the hypotheses of C12_reject_local on "LoCaLhOsT" for alice, who has no flag *)
Example ex_reject_name :
  parse_request req_name = Some (CMD_CONNECT, mkAddr [] s_LoCaLhOsT) /\
  LoopDest no_lit CMD_CONNECT (mkAddr [] s_LoCaLhOsT) /\
  user_loop cfg_ex u_alice = false /\
  find_action true no_lit cfg_ex true u_alice req_name 0 = (ACT_REJECT, None).
Proof.
  repeat split; try reflexivity.
  apply LoopDest_name; [reflexivity | apply LocalName_mem; reflexivity].
Qed.

(* ::ffff:172.31.255.255: the upper boundary of 172.16/12, in mapped form *)
Definition req_mapped_priv : bytes := [5; 3; 0; 4] ++ mapped [172; 31; 255; 255] ++ [0; 53].
Example ex_reject_mapped_private :
  parse_request req_mapped_priv = Some (CMD_ASSOC, mkAddr (mapped [172; 31; 255; 255]) []) /\
  PrivDest no_lit (mkAddr (mapped [172; 31; 255; 255]) []) /\
  user_priv cfg_ex u_alice = false /\
  find_action true no_lit cfg_ex true u_alice req_mapped_priv 0 = (ACT_REJECT, None).
Proof.
  repeat split; try reflexivity.
  exists (mapped [172; 31; 255; 255]). split; [left; split; reflexivity|].
  apply PI_mapped, v4_private_iff. repeat split. repeat constructor.
Qed.

(* bob has both flags: the rule list decides (rule 3 REJECTs every name, rule 2 PROXYs every IP) *)
Example ex_allowed :
  find_action true no_lit cfg_ex true u_bob req_name 0 = rules_action cfg_ex (mkAddr [] s_LoCaLhOsT) 0 /\
  rules_action cfg_ex (mkAddr [] s_LoCaLhOsT) 0 = (ACT_REJECT, None) /\
  find_action true no_lit cfg_ex true u_bob req_mapped_priv 0 = (ACT_PROXY, Some [112]).
Proof. repeat split; reflexivity. Qed.

(* overlapping rules: 8.8.8.8 meets rules 1 and 2, the first one wins; 8.9.9.9 only rule 2 *)
Example ex_first_match :
  rules_action cfg_ex (mkAddr [8; 8; 8; 8] []) 0 = (ACT_REJECT, None) /\
  rules_action cfg_ex (mkAddr [8; 9; 9; 9] []) 0 = (ACT_PROXY, Some [112]) /\
  match_rule (mkAddr [8; 8; 8; 8] []) (nth 1 (c_rules cfg_ex) (mkRule [] [] 0 [])) = true.
Proof. repeat split; reflexivity. Qed.

(* alice, stream mode: datagrams to 127.0.0.1, 0.0.0.0, "LOCALHOST", the literal "127.0.0.1" and "localhost."
   are dropped, 9.9.9.9 is sent, a malformed datagram ends the loop *)
Definition cfg_norules : config := mkConfig false [(u_alice, mkUser false false)] [] [].
Definition dg (addrenc : bytes) : bytes := [0; 0; 0] ++ addrenc ++ [1; 2; 3].
Example ex_relay :
  relay_run true lit_127 cfg_norules u_alice true
    [ dg [1; 127; 0; 0; 1; 0; 53]; dg [1; 0; 0; 0; 0; 0; 53];
      dg ([3; 9; 76; 79; 67; 65; 76; 72; 79; 83; 84] ++ [0; 53]);
      dg ([3; 9] ++ s_127_0_0_1 ++ [0; 53]); dg ([3; 10] ++ s_localhost_dot ++ [0; 53]);
      dg [1; 9; 9; 9; 9; 0; 53]; [0; 0; 1; 1; 9; 9; 9; 9; 0; 53; 1]; dg [1; 9; 9; 9; 9; 0; 53] ]
  = [ mkAddr [9; 9; 9; 9] [] ].
Proof. reflexivity. Qed.
