(* One equation feed cap ph (bytes ++ t) = emit es (feed cap ph' t) per phase of the reader (feed_start, feed_len,
   feed_data, feed_end), joined in feed_framed / feed_partial and lifted to the callers' loop by read_loop_emit /
   read_loop_quiet; the err_* lemmas and the theorems of C18 about the tunnel follow from these. *)
From Coq Require Import NArith ZArith List Lia.
From M Require Import gen.Consts model.Frame.
Import ListNotations.
Open Scope N_scope.

(* does not compile once a regenerated constant changes *)
Lemma frame_consts_ok :
  START < 256 /\ END_ < 256 /\ MAXLEN = 65535 /\ C18_FrameLenBytes = 2%Z /\ C18_FrameOverhead = 4%Z.
Proof. vm_compute. repeat split; reflexivity. Qed.

Lemma lenN_app : forall a b, lenN (a ++ b) = lenN a + lenN b.
Proof. induction a as [|x a IH]; intros b; cbn [lenN app]; [|rewrite IH]; lia. Qed.

Lemma lenN_length : forall l, lenN l = N.of_nat (length l).
Proof. induction l as [|x l IH]; cbn [lenN length]; [reflexivity|rewrite IH; lia]. Qed.

Lemma frame_len : forall d, lenN (frame d) = lenN d + Z.to_N C18_FrameOverhead.
Proof. intros d. unfold frame. cbn [lenN]. rewrite lenN_app. cbn [lenN]. change (Z.to_N C18_FrameOverhead) with 4. lia. Qed.

Lemma len_split : forall L, L = L / 256 * 256 + L mod 256.
Proof. intros L. rewrite N.mul_comm. apply N.div_mod'. Qed.

Lemma len_bytes : forall L hi lo, lo < 256 -> L = hi * 256 + lo -> L / 256 = hi /\ L mod 256 = lo.
Proof.
  intros L hi lo Hlo HL. apply (N.div_mod_unique 256); [apply N.mod_lt; discriminate|exact Hlo|].
  rewrite !(N.mul_comm 256), <- len_split. exact HL.
Qed.

Lemma feed_app : forall cap a b ph,
  feed cap ph (a ++ b) =
  (let (e1, p1) := feed cap ph a in let (e2, p2) := feed cap p1 b in (e1 ++ e2, p2)).
Proof.
  intros cap a b. induction a as [|x a IH]; intros ph; cbn [app feed].
  - destruct (feed cap ph b); reflexivity.
  - destruct (step cap ph x) as [p1 e]. rewrite IH.
    destruct (feed cap p1 a) as [e1 p2]. destruct (feed cap p2 b) as [e2 p3].
    rewrite app_assoc. reflexivity.
Qed.

Lemma feed_chunks_concat : forall cap chunks ph,
  feed_chunks cap ph chunks = feed cap ph (concat chunks).
Proof.
  intros cap chunks. induction chunks as [|c t IH]; intros ph; cbn [feed_chunks concat].
  - reflexivity.
  - rewrite feed_app. destruct (feed cap ph c) as [e1 p1]. rewrite IH. reflexivity.
Qed.

(* [emit es r]: the events [es], then whatever [r] goes on to report; the facts about the reader have the form
   feed cap ph (bytes ++ t) = emit es (feed cap ph' t) *)
Definition emit (es : list event) (r : list event * phase) : list event * phase := (es ++ fst r, snd r).

Lemma emit_nil : forall r, emit [] r = r.
Proof. intros [es ph]. reflexivity. Qed.

Lemma feed_cons : forall cap ph b t,
  feed cap ph (b :: t) = emit (snd (step cap ph b)) (feed cap (fst (step cap ph b)) t).
Proof. intros cap ph b t. cbn [feed]. destruct (step cap ph b) as [p1 e]. cbn [fst snd]. destruct (feed cap p1 t). reflexivity. Qed.

(* the phase after the length bytes announced [n] bytes of data: [step] never produces [PData 0] *)
Definition body (n : N) (acc : list N) : phase := if n =? 0 then PEnd acc else PData n acc.

Lemma feed_byte : forall cap n acc b t,
  feed cap (body (N.succ n) acc) (b :: t) = feed cap (body n (b :: acc)) t.
Proof.
  intros cap n acc b t. replace (body (N.succ n) acc) with (PData (N.succ n) acc) by (destruct n; reflexivity).
  rewrite feed_cons. cbn [step]. rewrite N.sub_1_r, N.pred_succ. unfold body.
  destruct (N.eqb_spec n 0) as [->|Hn]; [apply emit_nil|].
  rewrite (proj2 (N.eqb_neq (N.succ n) 1)) by lia. apply emit_nil.
Qed.

Lemma feed_start : forall cap b t, feed cap PStart (b :: t) =
  if b =? START then feed cap PLen1 t else emit [EvErr EBadStart] (feed cap PStart t).
Proof. intros cap b t. rewrite feed_cons. cbn [step]. destruct (b =? START); [apply emit_nil|reflexivity]. Qed.

Lemma feed_len : forall cap hi lo t, feed cap PLen1 (hi :: lo :: t) =
  if cap <? hi * 256 + lo then emit [EvErr EShortBuf] (feed cap PStart t) else feed cap (body (hi * 256 + lo) []) t.
Proof.
  intros cap hi lo t. rewrite !feed_cons. cbn [step fst snd]. rewrite emit_nil. unfold body.
  destruct (cap <? hi * 256 + lo); [reflexivity|]. destruct (hi * 256 + lo =? 0); apply emit_nil.
Qed.

Lemma feed_data : forall cap d k acc t,
  feed cap (body (lenN d + k) acc) (d ++ t) = feed cap (body k (rev d ++ acc)) t.
Proof.
  intros cap d. induction d as [|x d IH]; intros k acc t; [reflexivity|].
  cbn [app lenN rev]. rewrite <- app_assoc, <- IH, N.add_succ_l. apply feed_byte.
Qed.

Lemma feed_data_all : forall cap d acc t,
  feed cap (body (lenN d) acc) (d ++ t) = feed cap (PEnd (rev d ++ acc)) t.
Proof. intros cap d acc t. rewrite <- (N.add_0_r (lenN d)). apply feed_data. Qed.

Lemma feed_end : forall cap acc b t, feed cap (PEnd acc) (b :: t) =
  emit [if b =? END_ then EvD (rev acc) else EvErr EBadEnd] (feed cap PStart t).
Proof.
  intros cap acc b t. rewrite feed_cons. cbn [step]. rewrite rev_append_rev, app_nil_r.
  destruct (b =? END_); reflexivity.
Qed.

Lemma feed_framed : forall cap hi lo d e t, lenN d = hi * 256 + lo -> lenN d <= cap ->
  feed cap PStart (START :: hi :: lo :: d ++ e :: t) =
  emit [if e =? END_ then EvD d else EvErr EBadEnd] (feed cap PStart t).
Proof.
  intros cap hi lo d e t Hl Hc. apply N.ltb_ge in Hc.
  rewrite feed_start, N.eqb_refl, feed_len, <- Hl, Hc.
  rewrite feed_data_all, feed_end, app_nil_r, rev_involutive. reflexivity.
Qed.

Lemma feed_partial : forall cap hi lo r, hi * 256 + lo <= cap -> lenN r <= hi * 256 + lo ->
  exists ph, feed cap PStart (START :: hi :: lo :: r) = ([], ph).
Proof.
  intros cap hi lo r Hc Hr. apply N.ltb_ge in Hc. rewrite feed_start, N.eqb_refl, feed_len, Hc.
  (* r = r ++ [] and hi * 256 + lo = lenN r + k, for [feed_data] *)
  rewrite <- (app_nil_r r), <- (N.sub_add _ _ Hr), N.add_comm, feed_data. eexists. reflexivity.
Qed.

Lemma feed_frame : forall cap d t, lenN d <= cap ->
  feed cap PStart (frame d ++ t) = emit [EvD d] (feed cap PStart t).
Proof.
  intros cap d t H. unfold frame. cbn [app]. rewrite <- app_assoc. cbn [app].
  rewrite (feed_framed cap _ _ d END_ t (len_split _) H), N.eqb_refl. reflexivity.
Qed.

Lemma feed_frames : forall cap ds, Forall (fun d => lenN d <= cap) ds ->
  feed cap PStart (concat (map frame ds)) = (map EvD ds, PStart).
Proof.
  intros cap ds H. induction H as [|d ds Hd _ IH]; cbn [map concat]; [reflexivity|].
  rewrite feed_frame, IH by exact Hd. reflexivity.
Qed.

Lemma write_ok : forall d, lenN d <= MAXLEN -> write d = Some (frame d).
Proof. intros d H. unfold write. rewrite (proj2 (N.ltb_ge _ _) H). reflexivity. Qed.

Lemma write_too_long : forall d, MAXLEN < lenN d -> write d = None.
Proof. intros d H. unfold write. rewrite (proj2 (N.ltb_lt _ _) H). reflexivity. Qed.

Lemma write_all_spec : forall ds s, write_all ds = Some s ->
  s = concat (map frame ds) /\ Forall (fun d => lenN d <= MAXLEN) ds.
Proof.
  induction ds as [|d t IH]; intros s H; cbn [write_all] in H.
  - injection H as <-. split; [reflexivity|constructor].
  - unfold write in H. destruct (N.ltb_spec MAXLEN (lenN d)) as [Hl|Hl]; [discriminate|].
    destruct (write_all t) as [r|]; [|discriminate].
    injection H as <-. destruct (IH r eq_refl) as [-> Hf]. split; [reflexivity|constructor; assumption].
Qed.

Lemma write_all_ok : forall ds, Forall (fun d => lenN d <= MAXLEN) ds ->
  write_all ds = Some (concat (map frame ds)).
Proof.
  intros ds H. induction H as [|d t Hd Ht IH]; cbn [write_all map concat]; [reflexivity|].
  rewrite write_ok by exact Hd. rewrite IH. reflexivity.
Qed.

Lemma frame_bytes_ok : forall d, bytes_ok d -> lenN d <= MAXLEN -> bytes_ok (frame d).
Proof.
  intros d Hd Hl. destruct frame_consts_ok as (Hs & He & Hm & _). rewrite Hm in Hl.
  unfold bytes_ok, frame. repeat apply Forall_cons.
  - exact Hs.
  - apply N.div_lt_upper_bound; [discriminate|lia].
  - apply N.mod_lt. discriminate.
  - apply Forall_app. split; [exact Hd|]. constructor; [exact He|constructor].
Qed.

Lemma read_loop_emit : forall cap s es t, feed cap PStart s = emit es (feed cap PStart t) ->
  read_loop cap s = cut (es ++ run_raw cap t).
Proof.
  intros cap s es t H. unfold read_loop, run_raw. rewrite H. destruct (feed cap PStart t) as [es' ph].
  cbn [emit fst snd]. rewrite app_assoc. reflexivity.
Qed.

Lemma read_loop_quiet : forall cap s ph, feed cap PStart s = ([], ph) -> read_loop cap s = [EvErr (close ph)].
Proof. intros cap s ph H. unfold read_loop, run_raw. rewrite H. reflexivity. Qed.

Lemma read_loop_frame : forall cap d t, lenN d <= cap -> read_loop cap (frame d ++ t) = EvD d :: read_loop cap t.
Proof. intros cap d t H. rewrite (read_loop_emit cap _ [EvD d] t); [reflexivity|apply feed_frame; exact H]. Qed.

Lemma read_loop_after_frames : forall cap ds x, Forall (fun d => lenN d <= cap) ds ->
  read_loop cap (concat (map frame ds) ++ x) = map EvD ds ++ read_loop cap x.
Proof.
  intros cap ds x H. induction H as [|d ds Hd _ IH]; cbn [map concat app]; [reflexivity|].
  rewrite <- app_assoc, read_loop_frame, IH by exact Hd. reflexivity.
Qed.

Lemma read_loop_nil : forall cap, read_loop cap [] = [EvErr EEof].
Proof. reflexivity. Qed.

Lemma frame_stream_roundtrip : forall cap ds s chunks,
  write_all ds = Some s ->
  Forall (fun d => lenN d <= cap) ds ->
  concat chunks = s ->
  feed_chunks cap PStart chunks = (map EvD ds, PStart) /\
  read_loop cap s = map EvD ds ++ [EvErr EEof].
Proof.
  intros cap ds s chunks Hw Hc Hs. apply write_all_spec in Hw. destruct Hw as [-> _]. split.
  - rewrite feed_chunks_concat, Hs. apply feed_frames. exact Hc.
  - rewrite <- (app_nil_r (concat (map frame ds))). rewrite read_loop_after_frames by exact Hc. reflexivity.
Qed.

Lemma frame_stream_roundtrip_maxbuf : forall cap ds chunks,
  MAXLEN <= cap ->
  Forall (fun d => lenN d <= MAXLEN) ds ->
  concat chunks = concat (map frame ds) ->
  write_all ds = Some (concat (map frame ds)) /\
  feed_chunks cap PStart chunks = (map EvD ds, PStart).
Proof.
  intros cap ds chunks Hcap Hl Hs. split; [apply write_all_ok; exact Hl|].
  rewrite feed_chunks_concat, Hs. apply feed_frames.
  eapply Forall_impl; [|exact Hl]. cbn beta. intros d Hd. lia.
Qed.

Lemma write_oversize : forall ds1 d ds2, MAXLEN < lenN d -> write d = None /\ write_all (ds1 ++ d :: ds2) = None.
Proof.
  intros ds1 d ds2 H. split; [exact (write_too_long d H)|].
  destruct (write_all (ds1 ++ d :: ds2)) as [s|] eqn:E; [|reflexivity].
  apply write_all_spec in E. destruct E as [_ F]. apply Forall_app in F. destruct F as [_ F].
  apply Forall_inv in F. lia.
Qed.

Lemma err_bad_start : forall cap b rest, b <> START ->
  read_loop cap (b :: rest) = [EvErr EBadStart].
Proof.
  intros cap b rest H. apply N.eqb_neq in H.
  rewrite (read_loop_emit cap _ [EvErr EBadStart] rest); [reflexivity|]. rewrite feed_start, H. reflexivity.
Qed.

Lemma err_short_buffer : forall cap hi lo rest, cap < hi * 256 + lo ->
  read_loop cap (START :: hi :: lo :: rest) = [EvErr EShortBuf].
Proof.
  intros cap hi lo rest H. apply N.ltb_lt in H.
  rewrite (read_loop_emit cap _ [EvErr EShortBuf] rest); [reflexivity|].
  rewrite feed_start, N.eqb_refl, feed_len, H. reflexivity.
Qed.

Lemma err_bad_end : forall cap hi lo d b rest, lenN d = hi * 256 + lo -> lenN d <= cap -> b <> END_ ->
  read_loop cap (START :: hi :: lo :: d ++ b :: rest) = [EvErr EBadEnd].
Proof.
  intros cap hi lo d b rest Hl Hcap Hb. apply N.eqb_neq in Hb.
  rewrite (read_loop_emit cap _ [EvErr EBadEnd] rest); [reflexivity|].
  rewrite feed_framed, Hb by assumption. reflexivity.
Qed.

Lemma feed_proper_prefix : forall cap d p q, lenN d <= cap -> frame d = p ++ q -> q <> [] ->
  exists ph, feed cap PStart p = ([], ph).
Proof.
  intros cap d p q Hcap Hf Hq. destruct q as [|e q]; [congruence|].
  pose proof (frame_len d) as Hn. rewrite Hf, lenN_app in Hn. change (Z.to_N C18_FrameOverhead) with 4 in Hn.
  unfold frame in Hf. destruct p as [|p0 [|p1 [|p2 p']]]; cbn [app] in Hf.
  1: eexists; reflexivity.
  1, 2: injection Hf as <-; eexists; reflexivity.
  (* of the prefix only the length, counted in Hn, is used *)
  injection Hf as <- <- <- _. apply feed_partial; rewrite <- len_split; [exact Hcap|]. cbn [lenN] in Hn. lia.
Qed.

Lemma frame_error : forall cap ds, Forall (fun d => lenN d <= cap) ds ->
  let pre := concat (map frame ds) in
  (forall b rest, b <> START ->
     read_loop cap (pre ++ b :: rest) = map EvD ds ++ [EvErr EBadStart]) /\
  (forall hi lo rest, cap < hi * 256 + lo ->
     read_loop cap (pre ++ START :: hi :: lo :: rest) = map EvD ds ++ [EvErr EShortBuf]) /\
  (forall d b rest, lenN d <= cap -> b <> END_ ->
     read_loop cap (pre ++ START :: lenN d / 256 :: lenN d mod 256 :: d ++ b :: rest) = map EvD ds ++ [EvErr EBadEnd]) /\
  (forall d p q, lenN d <= cap -> frame d = p ++ q -> q <> [] ->
     exists e, (e = EEof \/ e = EUnexpectedEof) /\ read_loop cap (pre ++ p) = map EvD ds ++ [EvErr e]).
Proof.
  intros cap ds H pre. unfold pre. repeat split.
  - intros b rest Hb. rewrite read_loop_after_frames, err_bad_start by assumption. reflexivity.
  - intros hi lo rest Hl. rewrite read_loop_after_frames, err_short_buffer by assumption. reflexivity.
  - intros d b rest Hd Hb. rewrite read_loop_after_frames, err_bad_end by (try apply len_split; assumption). reflexivity.
  - intros d p q Hd Hf Hq. destruct (feed_proper_prefix cap d p q Hd Hf Hq) as [ph Hph].
    exists (close ph). split; [destruct ph as [| | |n [|a acc]|acc]; cbn [close]; auto|].
    rewrite read_loop_after_frames, (read_loop_quiet _ _ _ Hph) by exact H. reflexivity.
Qed.

(* the first conjunct of [read_loop_sound], which needs no bound on the bytes *)
Lemma read_loop_shape : forall cap s, exists ds e, read_loop cap s = map EvD ds ++ [EvErr e].
Proof.
  intros cap s. unfold read_loop, run_raw. destruct (feed cap PStart s) as [es ph].
  induction es as [|[d|e] t IH]; cbn [app cut].
  - exists [], (close ph). reflexivity.
  - destruct IH as [ds [e IH]]. exists (d :: ds), e. cbn [map app]. rewrite IH. reflexivity.
  - exists [], e. reflexivity.
Qed.

Lemma split_or_short : forall (r : list N) L,
  (exists d e rest, r = d ++ e :: rest /\ lenN d = L) \/ lenN r <= L.
Proof.
  induction r as [|x r IH]; intros L; [right; apply N.le_0_l|].
  destruct (N.eq_dec L 0) as [->|H]; [left; exists [], x, r; split; reflexivity|].
  destruct (IH (L - 1)) as [(d & e & rest & -> & Hl)|Hs].
  - left. exists (x :: d), e, rest. split; [reflexivity|cbn [lenN]; lia].
  - right. cbn [lenN]. lia.
Qed.

Lemma frame_or_error : forall cap s, bytes_ok s ->
  (exists d rest, s = frame d ++ rest /\ lenN d <= cap) \/ (exists e, read_loop cap s = [EvErr e]).
Proof.
  intros cap s Hb. destruct s as [|b r]; [right; eexists; reflexivity|].
  destruct (N.eq_dec b START) as [->|Hs]; [|right; eexists; apply err_bad_start; exact Hs].
  destruct r as [|hi [|lo r]]; [right; eexists; reflexivity ..|].
  pose proof (Forall_inv (Forall_inv_tail (Forall_inv_tail Hb))) as Hlo. cbn beta in Hlo.
  destruct (N.lt_ge_cases cap (hi * 256 + lo)) as [Hc|Hc]; [right; eexists; apply err_short_buffer; exact Hc|].
  destruct (split_or_short r (hi * 256 + lo)) as [(d & e & rest & -> & Hl)|Hshort].
  - rewrite <- Hl in Hc. destruct (N.eq_dec e END_) as [->|He].
    + left. exists d, rest. split; [|exact Hc]. unfold frame. destruct (len_bytes _ _ _ Hlo Hl) as [-> ->].
      cbn [app]. rewrite <- app_assoc. reflexivity.
    + right. eexists. apply err_bad_end; [exact Hl|exact Hc|exact He].
  - right. destruct (feed_partial cap hi lo r Hc Hshort) as [ph Hph]. eexists. apply read_loop_quiet. exact Hph.
Qed.

Lemma read_loop_sound : forall cap s, bytes_ok s -> exists ds e rest,
  read_loop cap s = map EvD ds ++ [EvErr e] /\ s = concat (map frame ds) ++ rest /\
  Forall (fun d => lenN d <= cap) ds.
Proof.
  intros cap s. induction s as [s IH] using (induction_ltof1 _ (@length N)). intros Hb.
  destruct (frame_or_error cap s Hb) as [(d & rest & -> & Hd)|[e He]].
  - apply Forall_app in Hb. destruct (IH rest) as (ds & e & rest' & Hr & Hs & Hf); [|exact (proj2 Hb)|].
    { unfold ltof, frame. rewrite app_length. cbn [length]. lia. }
    exists (d :: ds), e, rest'. split; [|split].
    + rewrite read_loop_frame, Hr by exact Hd. reflexivity.
    + cbn [map concat]. rewrite Hs. rewrite <- app_assoc. reflexivity.
    + constructor; assumption.
  - exists [], e, s. split; [exact He|]. split; [reflexivity|constructor].
Qed.

Example ex_roundtrip_markers_in_payload :
  let ds := [[0; 255; 0; 255]; []; [255]] in
  write_all ds = Some [0;0;4;0;255;0;255;255; 0;0;0;255; 0;0;1;255;255] /\
  feed_chunks 65536 PStart [[0]; [0;4;0]; [255;0;255;255;0;0]; [0;255;0;0]; [1;255;255]] = (map EvD ds, PStart).
Proof. vm_compute. split; reflexivity. Qed.

Example ex_errors :
  read_loop 65536 [0;0;1;7;255; 1;0;0] = [EvD [7]; EvErr EBadStart] /\
  read_loop 65536 [0;0;1;7;254; 0;0;0;255] = [EvErr EBadEnd] /\
  read_loop 4 [0;0;5;1;2;3;4;5;255] = [EvErr EShortBuf] /\
  read_loop 65536 [0;0;2;9] = [EvErr EUnexpectedEof] /\
  read_loop 65536 [0;0;2] = [EvErr EEof] /\
  (* what the tunnel itself does when Read is called again after io.ErrShortBuffer: it parses the data *)
  run_raw 4 [0;0;5; 0;0;1;42;255; 255] = [EvErr EShortBuf; EvD [42]; EvErr EBadStart; EvErr EEof].
Proof. vm_compute. repeat split; reflexivity. Qed.

Example ex_sound_nonvacuous : bytes_ok [0;0;1;0;255; 0;0;0;255; 0;0;2;1] /\
  read_loop 65536 [0;0;1;0;255; 0;0;0;255; 0;0;2;1] = [EvD [0]; EvD []; EvErr EUnexpectedEof].
Proof. split; [repeat constructor|vm_compute; reflexivity]. Qed.
