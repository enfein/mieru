(* Proofs about model/KeyTime.v (property C08): which key slots two clocks share, which minute stamps a receiver
   accepts, and that the key cache hands out the keys of the slot of [now].
   The zify hook below gives [lia] division and remainder by constants. *)
From Coq Require Import ZArith List Bool Lia ZifyBool.
From M Require Import gen.Consts model.KeyTime.
Import ListNotations.
Local Open Scope Z_scope.

Local Ltac Zify.zify_post_hook ::= Z.div_mod_to_equations.

Definition R := KeyRefreshInterval_ns.
Definition S60 : Z := 60 * NS.

Lemma off_val : unixToInternal_s = 62135596800.
Proof. reflexivity. Qed.

(* the zero time of Go is a whole number of refresh intervals before the unix epoch *)
Lemma off_multiple : (unixToInternal_s * NS) mod R = 0.
Proof. reflexivity. Qed.

Lemma go_round_multiple (T d : Z) : 0 < d ->
  exists k, go_round T d = k * d /\ 2 * T - d < 2 * (k * d) <= 2 * T + d.
Proof.
  intros Hd. unfold go_round. destruct (Z.leb_spec d 0) as [?|_]; [lia|].
  pose proof (Z.div_mod T d) as E. pose proof (Z.mod_pos_bound T d Hd) as B.
  destruct (Z.ltb_spec (T mod d + T mod d) d) as [H|H].
  - exists (T / d). lia.
  - exists (T / d + 1). lia.
Qed.

Lemma epoch_char (t : Z) :
  exists k, epoch R t = k * 120 /\ 2 * t - R < 2 * (k * R) <= 2 * t + R.
Proof.
  unfold epoch. destruct (go_round_multiple (t + unixToInternal_s * NS) R) as [k [Hk Hb]]; [reflexivity|].
  rewrite Hk.
  (* the offset is a whole number q of refresh intervals: taking it away shifts the slot number by q *)
  pose proof off_multiple as M. apply Z.div_exact in M; [|discriminate].
  set (q := unixToInternal_s * NS / R) in M. clearbody q. rewrite M in *.
  exists (k - q). unfold R, KeyRefreshInterval_ns, NS in *. split; lia.
Qed.

Lemma slots_char (t : Z) :
  slots R t = [epoch R t - 120; epoch R t; epoch R t + 120].
Proof.
  unfold slots, epoch. destruct (go_round_multiple (t + unixToInternal_s * NS) R) as [k [Hk _]]; [reflexivity|].
  rewrite Hk. rewrite off_val. unfold R, KeyRefreshInterval_ns, NS.
  (* the middle element is [epoch] itself *)
  f_equal; [lia|]. do 2 f_equal. lia.
Qed.

(* [epoch_char] turns the two instants into slot numbers k, k'; their distance bounds k' - k *)
Lemma key_common (a b : Z) : Z.abs (b - a) <= 2 * S60 -> In (epoch R a) (slots R b).
Proof.
  intros Hd. rewrite slots_char.
  destruct (epoch_char a) as [k [Hk Hb]]. destruct (epoch_char b) as [k' [Hk' Hb']].
  rewrite Hk, Hk'. unfold S60, R, KeyRefreshInterval_ns, NS in *.
  assert (k' = k - 1 \/ k' = k \/ k' = k + 1) as [E|[E|E]] by lia; subst k'; cbn [In]; lia.
Qed.

Lemma key_stale (a b : Z) : 4 * S60 <= Z.abs (b - a) -> ~ In (epoch R a) (slots R b).
Proof.
  intros Hd. rewrite slots_char.
  destruct (epoch_char a) as [k [Hk Hb]]. destruct (epoch_char b) as [k' [Hk' Hb']].
  rewrite Hk, Hk'. unfold S60, R, KeyRefreshInterval_ns, NS in *.
  cbn [In]. intros [E|[E|[E|[]]]]; lia.
Qed.

Lemma stale_key_refused (t d : Z) :
  4 * S60 <= Z.abs d -> ~ In (epoch R t) (slots R (t + d)).
Proof. intros Hd. apply key_stale. replace (t + d - t) with d by lia. exact Hd. Qed.

(* the instants at which the stamp is the number of the minute, at least 1 and at most 2^32 - 3, so that neither
   minute - 1 nor minute + 1 of the receiver's test wraps in uint32 *)
Definition era (t : Z) : Prop := 60 * NS <= t /\ t < (U32 - 1) * 60 * NS.

Lemma era_seconds (t : Z) : era t -> - 2 ^ 63 <= t / NS < 2 ^ 63.
Proof. unfold era, U32, NS. intros [H1 H2]. lia. Qed.

Lemma minute_char (t : Z) : era t -> minute t * S60 <= t < (minute t + 1) * S60 /\ 1 <= minute t < U32 - 1.
Proof.
  unfold era, minute, u32, S60, U32, NS. intros [H1 H2].
  rewrite Z.quot_div_nonneg, Z.mod_small by lia. lia.
Qed.

Lemma mid3_clamp (a lo hi : Z) : lo <= hi -> mid3 a lo hi = Z.max lo (Z.min a hi).
Proof.
  intros H. unfold mid3. destruct (Z.ltb_spec lo a); cbv beta iota.
  - destruct (Z.ltb_spec hi lo); [lia|]. cbv beta iota. destruct (Z.ltb_spec hi a); lia.
  - destruct (Z.ltb_spec hi a); [lia|]. cbv beta iota. destruct (Z.ltb_spec hi lo); lia.
Qed.

Lemma within_range32_char (v m : Z) :
  0 <= v < U32 -> 1 <= m < U32 - 1 ->
  within_range32 v m 1 = (m - 1 <=? v) && (v <=? m + 1).
Proof.
  intros Hv Hm. unfold within_range32, u32.
  rewrite (Z.mod_small (m - 1)), (Z.mod_small (m + 1)), mid3_clamp by lia. lia.
Qed.

Lemma timestamp_ok_char (a b : Z) : era a -> era b ->
  timestamp_ok b a = (minute a - 1 <=? minute b) && (minute b <=? minute a + 1).
Proof.
  intros Ha Hb. destruct (minute_char a Ha) as [_ Ma]. destruct (minute_char b Hb) as [_ Mb].
  apply within_range32_char; lia.
Qed.

Lemma stamp_within (a b : Z) : era a -> era b -> Z.abs (b - a) <= S60 -> timestamp_ok b a = true.
Proof.
  intros Ha Hb Hd. rewrite timestamp_ok_char by assumption.
  destruct (minute_char a Ha) as [Ba _]. destruct (minute_char b Hb) as [Bb _]. unfold S60, NS in *. lia.
Qed.

Lemma stamp_stale (a b : Z) : era a -> era b -> 2 * S60 <= Z.abs (b - a) -> timestamp_ok b a = false.
Proof.
  intros Ha Hb Hd. rewrite timestamp_ok_char by assumption.
  destruct (minute_char a Ha) as [Ba _]. destruct (minute_char b Hb) as [Bb _]. unfold S60, NS in *. lia.
Qed.

Lemma skew60_timestamp (t d : Z) :
  era t -> era (t + d) -> Z.abs d <= S60 -> timestamp_ok (t + d) t = true.
Proof. intros Ht Htd Hd. apply stamp_within; try assumption. replace (t + d - t) with d by lia. exact Hd. Qed.

Lemma stale_minute_refused (t d : Z) :
  era t -> era (t + d) -> 2 * S60 <= Z.abs d -> timestamp_ok (t + d) t = false.
Proof. intros Ht Htd Hd. apply stamp_stale; try assumption. replace (t + d - t) with d by lia. exact Hd. Qed.

Definition entry_ok (e : entry) : Prop := e_keys e = slots R (e_create e) /\ e_epoch e = epoch R (e_create e).
Definition cache_ok (c : option entry) : Prop := match c with Some e => entry_ok e | None => True end.

Lemma entry_ok_now (e : entry) (now : Z) : entry_ok e -> e_epoch e = epoch R now -> e_keys e = slots R now.
Proof. intros [Hk He] E. rewrite Hk, !slots_char. congruence. Qed.

(* [j]: the jitter in ms.  For a fresh entry every clause but the last is by reflexivity and the last has a false
   premise; only a reused entry needs [cache_ok c]. *)
Lemma cache_lookup_ok V (c : option entry) (now j : Z) :
  cache_ok c ->
  let '(reused, e, c') := cache_lookup R V c now j in
  cache_ok c' /\ c' = Some e /\ e_epoch e = epoch R now /\ e_keys e = slots R now /\
  (reused = true -> c = Some e /\ now <= e_create e + V - j * 1000000).
Proof.
  intros Hc. unfold cache_lookup. destruct c as [e|].
  - destruct (Z.eqb_spec (e_epoch e) (epoch R now)) as [E|E]; cbn [negb orb].
    + destruct (Z.ltb_spec (e_create e + (V - j * 1000000)) now) as [L|L].
      * cbn. repeat split; discriminate.
      * pose proof Hc as [Hk He]. cbn. repeat split; try assumption; [apply entry_ok_now; assumption | lia].
    + cbn. repeat split; discriminate.
  - cbn. repeat split; discriminate.
Qed.

Lemma cache_run_ok V (h : list (Z * Z)) : forall c, cache_ok c -> cache_ok (cache_run R V c h).
Proof.
  induction h as [|[now j] h IH]; intros c Hc; cbn [cache_run]; [assumption|].
  pose proof (cache_lookup_ok V c now j Hc) as H.
  destruct (cache_lookup R V c now j) as [[r e] c']. apply IH. tauto.
Qed.

Lemma cache_slot_exact V (h : list (Z * Z)) (now j : Z) :
  let '(_, e, _) := cache_lookup R V (cache_run R V None h) now j in
  e_epoch e = epoch R now /\ e_keys e = slots R now.
Proof.
  pose proof (cache_lookup_ok V _ now j (cache_run_ok V h None I)) as H.
  destruct (cache_lookup R V (cache_run R V None h) now j) as [[r e] c']. tauto.
Qed.

Lemma cache_reuse_age (h : list (Z * Z)) (now j : Z) :
  0 <= j ->
  let '(reused, e, _) := cache_lookup R cacheValidInterval_ns (cache_run R cacheValidInterval_ns None h) now j in
  reused = true -> now - e_create e <= 30 * NS.
Proof.
  intros Hj.
  pose proof (cache_lookup_ok cacheValidInterval_ns _ now j (cache_run_ok cacheValidInterval_ns h None I)) as H.
  destruct (cache_lookup R cacheValidInterval_ns (cache_run R cacheValidInterval_ns None h) now j) as [[r e] c'].
  intros Hr. destruct H as (_ & _ & _ & _ & H). specialize (H Hr) as [_ H].
  unfold cacheValidInterval_ns, NS in *. lia.
Qed.

Lemma decryptor_miss V (c : option entry) (now j : Z) :
  cache_ok c ->
  let '(_, e, c') := cache_lookup R V c now j in
  cache_ok (Some e) /\ cache_ok c' /\ e_epoch e = epoch R now /\ e_keys e = slots R now.
Proof.
  intros Hc. pose proof (cache_lookup_ok V c now j Hc) as H.
  destruct (cache_lookup R V c now j) as [[r e] c']. destruct H as (H1 & -> & H3 & H4 & _). auto.
Qed.

Lemma decryptor_slot_exact V (d c : option entry) (now j : Z) :
  cache_ok d -> cache_ok c ->
  let '(e, d', c') := decryptor_lookup R V d c now j in
  cache_ok d' /\ cache_ok c' /\ e_epoch e = epoch R now /\ e_keys e = slots R now.
Proof.
  intros Hd Hc. unfold decryptor_lookup. pose proof (decryptor_miss V c now j Hc) as Miss.
  destruct d as [e|].
  - destruct (Z.eqb_spec (e_epoch e) (epoch R now)) as [E|_].
    + pose proof Hd as [Hk He]. repeat split; try assumption. apply entry_ok_now; assumption.
    + destruct (cache_lookup R V c now j) as [[r e'] c']. exact Miss.
  - destruct (cache_lookup R V c now j) as [[r e'] c']. exact Miss.
Qed.

(* non-vacuity: concrete instants at a slot change and at a minute tick *)
Example ex_boundary :
  let t := 1700000100 * NS - 1 in
  epoch R t = 1700000040 /\ epoch R (t + 1) = 1700000160 /\
  In (epoch R t) (slots R (t + S60)) /\ In (epoch R (t + S60)) (slots R t) /\
  timestamp_ok (t + S60) t = true /\ timestamp_ok (t + 2 * S60) t = false /\ era t.
Proof. vm_compute. intuition (auto; discriminate). Qed.

Definition handshake_ok (t_client t_server : Z) : Prop :=
  (* the client's sending key (middle slot of its own clock) is among the server's three, and both timestamps pass the
     receiver's test.  (The server replies with the key that opened the request, so no second key condition.) *)
  In (epoch R t_client) (slots R t_server) /\
  timestamp_ok t_server t_client = true /\ timestamp_ok t_client t_server = true.

Lemma handshake_within (a b : Z) : era a -> era b -> Z.abs (b - a) <= S60 -> handshake_ok a b.
Proof.
  intros Ha Hb Hd. repeat split.
  - apply key_common. unfold S60, NS in *. lia.
  - apply stamp_within; assumption.
  - apply stamp_within; try assumption. lia.
Qed.

Definition W := packetUnderlayScheduleWindow_ns.

Lemma aged_underlay_common_key (c age skew : Z) :
  0 <= age -> underlay_takes_sessions W age = true -> Z.abs skew <= S60 ->
  In (epoch R c) (slots R (c + age + skew)).
Proof.
  intros Ha Ht Hs. apply key_common.
  unfold underlay_takes_sessions in Ht. apply Z.leb_le in Ht.
  unfold W, packetUnderlayScheduleWindow_ns, S60, NS in *. lia.
Qed.

Lemma key_found_In (k t : Z) : key_found R k t = true <-> In k (slots R t).
Proof.
  unfold key_found. rewrite existsb_exists. split.
  - intros [x [Hin Heq]]. apply Z.eqb_eq in Heq. subst. assumption.
  - intros Hin. exists k. split; [assumption|apply Z.eqb_refl].
Qed.

Lemma aged_underlay_handshake (c age skew : Z) :
  era (c + age) -> era (c + age + skew) ->
  0 <= age -> underlay_takes_sessions W age = true -> Z.abs skew <= S60 ->
  open_request_ok R c (c + age) skew = true /\ timestamp_ok (c + age) (c + age + skew) = true.
Proof.
  intros E1 E2 Ha Ht Hs. unfold open_request_ok. split.
  - apply andb_true_intro. split.
    + apply key_found_In. apply aged_underlay_common_key; assumption.
    + apply skew60_timestamp; assumption.
  - apply stamp_within; try assumption. lia.
Qed.

(* witness: created at the last instant of a slot, one nanosecond older than the window, server exactly 60 s ahead *)
Lemma underlay_window_maximal (w : Z) :
  W < w ->
  exists c age skew, 0 <= age /\ underlay_takes_sessions w age = true /\ Z.abs skew <= S60 /\
                     ~ In (epoch R c) (slots R (c + age + skew)).
Proof.
  intros Hw. exists (1700000100 * NS - 1), (W + 1), S60.
  split; [unfold W, packetUnderlayScheduleWindow_ns; lia|].
  split; [unfold underlay_takes_sessions; apply Z.leb_le; lia|].
  split; [unfold S60, NS; lia|].
  vm_compute. intros [H|[H|[H|[]]]]; discriminate.
Qed.

Lemma full_refresh_window_refuted :
  exists c age skew, 0 <= age /\ underlay_takes_sessions KeyRefreshInterval_ns age = true /\ Z.abs skew <= S60 /\
                     ~ In (epoch R c) (slots R (c + age + skew)) /\ key_found R (epoch R c) (c + age + skew) = false.
Proof.
  exists (1700000100 * NS - 1), (90 * NS), S60. vm_compute.
  repeat split; try discriminate. intros [H|[H|[H|[]]]]; discriminate.
Qed.

(* non-vacuity: an underlay created at the last instant of a slot, exactly [W] old, server exactly 60 s ahead *)
Example ex_aged_boundary :
  let c := 1700000100 * NS - 1 in
  underlay_takes_sessions W W = true /\ underlay_takes_sessions W (W + 1) = false /\
  era (c + W) /\ era (c + W + S60) /\
  open_request_ok R c (c + W) S60 = true /\ open_request_ok R c (c + W + 1) S60 = false /\
  epoch R c = 1700000040 /\ slots R (c + W + S60) = [1700000040; 1700000160; 1700000280].
Proof. vm_compute. intuition (auto; discriminate). Qed.
