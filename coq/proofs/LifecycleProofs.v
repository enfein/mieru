(* Proofs for C15: Deadline.v (deadline state) and Lifecycle.v (close / wait points). *)
From Coq Require Import ZArith List Bool Lia.
From M Require Import gen.Consts model.Deadline model.Lifecycle.
Import ListNotations.

(* graceful close waits at most 1 s *)
Lemma close_wait_bound : (C15_closeWaitIterations * C15_closeWaitSleep_ns = 1000000000)%Z.
Proof. reflexivity. Qed.

Section DeadlineFacts.
Open Scope Z_scope.

Lemma omin_some_l : forall x b, exists m, omin (Some x) b = Some m /\ m <= x.
Proof. intros x [y|]; simpl; eexists; split; eauto; lia. Qed.

Lemma omin_le_r : forall a y, exists m, omin a (Some y) = Some m /\ m <= y.
Proof. intros [x|] y; simpl; eexists; split; eauto; lia. Qed.

Definition no_earlier (n : Z) (o : option Z) : Prop := forall x, o = Some x -> n <= x.

Lemma omin_no_earlier : forall n a b, no_earlier n a -> no_earlier n b -> no_earlier n (omin a b).
Proof.
  intros n [u|] b A B; [destruct b as [v|]|exact B]; intros x [= <-].
  - apply Z.min_glb; [apply A|apply B]; reflexivity.
  - apply A; reflexivity.
Qed.

Lemma at_or_after_no_earlier : forall n o, no_earlier n (at_or_after n o).
Proof. intros n [u|] x [= <-]. apply Z.le_max_l. Qed.

Lemma dl_exit_no_earlier : forall n eff, no_earlier n (dl_exit n eff).
Proof. intros n eff x. unfold dl_exit. destruct (eff =? 0); intros [= <-]. apply Z.le_max_l. Qed.

Lemma dl_exit_set : forall n eff, eff <> 0 -> dl_exit n eff = Some (Z.max n eff).
Proof. intros n eff H. unfold dl_exit. apply Z.eqb_neq in H. rewrite H. reflexivity. Qed.

(* Read and writeChunk both start by waiting for the earliest of three events and the deadline timer *)
Definition first_exit (now eff : Z) (a b c : option Z) : option Z :=
  omin (omin (at_or_after now a) (at_or_after now b)) (omin (at_or_after now c) (dl_exit now eff)).

Lemma first_exit_no_earlier : forall now eff a b c, no_earlier now (first_exit now eff a b c).
Proof. intros. repeat apply omin_no_earlier; apply at_or_after_no_earlier || apply dl_exit_no_earlier. Qed.

Lemma first_exit_by_deadline : forall now eff a b c, eff <> 0 ->
  exists m, first_exit now eff a b c = Some m /\ now <= m <= Z.max now eff.
Proof.
  intros now eff a b c H. pose proof (first_exit_no_earlier now eff a b c) as F. unfold first_exit in *.
  rewrite (dl_exit_set _ _ H) in *.
  destruct (omin_le_r (at_or_after now c) (Z.max now eff)) as (m1 & E1 & L1). rewrite E1 in *.
  destruct (omin_le_r (omin (at_or_after now a) (at_or_after now b)) m1) as (m & E & L). rewrite E in *.
  exists m. split; [reflexivity|]. split; [apply F; reflexivity|lia].
Qed.

Lemma first_exit_now : forall now eff b c, first_exit now eff (Some now) b c = Some now.
Proof.
  intros now eff b c. pose proof (first_exit_no_earlier now eff (Some now) b c) as F. unfold first_exit in *.
  cbn [at_or_after option_map] in *. rewrite Z.max_id in *.
  destruct (omin_some_l now (at_or_after now b)) as (m1 & E1 & L1). rewrite E1 in *.
  destruct (omin_some_l m1 (omin (at_or_after now c) (dl_exit now eff))) as (m & E & L). rewrite E in *.
  f_equal. specialize (F m eq_refl). lia.
Qed.

Lemma read_outcome_time : forall now eff data closed err,
  snd (read_outcome now eff data closed err) = first_exit now eff data closed err.
Proof.
  intros. unfold read_outcome, first_exit. cbv zeta. destruct (omin (omin _ _) _) as [m|]; [|reflexivity].
  destruct (is_at m _); [reflexivity|]. destruct (is_at m _); [reflexivity|]. destruct (is_at m _); reflexivity.
Qed.

Definition never : option Z := None.

Definition persists_read (cl : bool) : Prop :=
  forall t0 d l, 0 < d -> t0 <= d -> forallb is_read l = true ->
    length (Deadline.run (mkSt t0 (mkD d 0) cl) l) = length l /\ forallb (returns_by d) (Deadline.run (mkSt t0 (mkD d 0) cl) l) = true.

Lemma read_deadline_witness : forall cl,
  Deadline.run (mkSt 0 (mkD 0 0) cl) [OSet WhR 200000; ORead never never never; ORead never never never]
  = [(TIMEOUT, Some 200000); (BLOCKED, None)].
Proof. intros []; vm_compute; reflexivity. Qed.

Lemma write_deadline_witness : forall cl,
  Deadline.run (mkSt 0 (mkD 0 0) cl) [OSet WhW 200000; OWrite false never (Some 0) (Some 0) never never; OWrite false never (Some 0) (Some 0) never never]
  = [(TIMEOUT, Some 200000); (BLOCKED, None)].
Proof. intros []; vm_compute; reflexivity. Qed.

Definition persists_write (cl : bool) : Prop :=
  forall t0 d l, 0 < d -> t0 <= d -> forallb is_write l = true ->
    forallb (returns_by d) (Deadline.run (mkSt t0 (mkD 0 d) cl) l) = true /\ length (Deadline.run (mkSt t0 (mkD 0 d) cl) l) = length l.

Lemma write_deadline_refuted : forall cl, ~ persists_write cl.
Proof.
  intros cl H.
  destruct (H 0 200000 [OWrite false never (Some 0) (Some 0) never never; OWrite false never (Some 0) (Some 0) never never])
    as [R _]; [lia|lia|reflexivity|].
  (* this is the run of the witness after its SetWriteDeadline *)
  pose proof (write_deadline_witness cl) as W.
  change (Deadline.run _ (_ :: ?l)) with (Deadline.run (mkSt 0 (mkD 0 200000) cl) l) in W.
  rewrite W in R. discriminate R.
Qed.

Lemma write_deadline_ignored_when_stalled : forall now eff closed oerr,
  write_outcome now eff false (Some now) None (Some now) closed oerr = (BLOCKED, None)
  /\ write_outcome now eff false (Some now) (Some now) None None oerr =
     (if (match dl_exit now eff with Some x => x <=? now | None => false end) then write_outcome now eff false (Some now) (Some now) None None oerr
      else if (match at_or_after now oerr with Some x => x <=? now | None => false end) then write_outcome now eff false (Some now) (Some now) None None oerr
      else (BLOCKED, None)).
Proof.
  (* in both cases the queue has room at once, so the first wait ends at now, with space *)
  intros. split.
  - unfold write_outcome. cbv zeta. fold (first_exit now eff (Some now) closed oerr). rewrite first_exit_now.
    cbn [at_or_after option_map is_at]. rewrite Z.max_id, Z.eqb_refl. reflexivity.
  - destruct (match dl_exit now eff with Some x => x <=? now | None => false end) eqn:A; [reflexivity|].
    destruct (match at_or_after now oerr with Some x => x <=? now | None => false end) eqn:B; [reflexivity|].
    unfold write_outcome. cbv zeta. fold (first_exit now eff (Some now) None oerr). rewrite first_exit_now.
    cbn [at_or_after option_map is_at]. rewrite !Z.max_id, Z.eqb_refl.
    (* the lock is free at now as well: the polls of the fragment loop are A and B, and the last wait has no exit *)
    cbn [at_or_after option_map] in B. rewrite A, B. reflexivity.
Qed.

(* with a deadline a first Write returns by it, or else as soon as the output lock was free (lo) and the send queue moved
   (mv): those two waits have no timer *)
Lemma write_single_call : forall now eff space lo mv closed oerr, eff <> 0 ->
  exists c t, write_outcome now eff false space (Some lo) (Some mv) closed oerr = (c, Some t)
              /\ t <= Z.max (Z.max now eff) (Z.max lo mv).
Proof.
  intros now eff space lo mv closed oerr Hne. unfold write_outcome. cbv zeta.
  destruct (first_exit_by_deadline now eff space closed oerr Hne) as (m & E & L). unfold first_exit in E. rewrite E.
  destruct (is_at m (at_or_after now space)).
  - (* space at m <= deadline; lock at l; every poll of the fragment loop that fires returns at l *)
    cbn [at_or_after option_map]. set (l := Z.max m lo).
    assert (Ll : l <= Z.max (Z.max now eff) (Z.max lo mv)) by lia.
    destruct (match at_or_after now closed with Some x => x <=? l | None => false end); [eauto|].
    destruct (match at_or_after now oerr with Some x => x <=? l | None => false end); [eauto|].
    destruct (match dl_exit now eff with Some x => x <=? l | None => false end); [eauto|].
    destruct (omin_some_l (Z.max l mv) (at_or_after l closed)) as (r & Er & Lr). rewrite Er.
    exists OK, r. split; [reflexivity|lia].
  - assert (Lm : m <= Z.max (Z.max now eff) (Z.max lo mv)) by lia.
    destruct (is_at m _); [eauto|]. destruct (is_at m _); eauto.
Qed.

Lemma client_write_overwrites_read_deadline : forall t s,
  rd (write_return true false OK t s) = t + 10000000 /\ wd (write_return true false OK t s) = 0.
Proof. intros; split; reflexivity. Qed.

Lemma server_write_keeps_read_deadline : forall c t s, rd (write_return false false c t s) = rd s.
Proof. intros; reflexivity. Qed.

Lemma client_write_witness :
  Deadline.run (mkSt 0 (mkD 0 0) true) [OSet WhR 300000; OWrite false (Some 0) (Some 0) (Some 50000) never never; ORead never never never]
  = [(OK, Some 50000); (TIMEOUT, Some 10050000)].
Proof. vm_compute; reflexivity. Qed.

End DeadlineFacts.

Definition active (p : cpc) : nat := match p with CIdle | CRet => 0 | _ => 1 end.
Definition b2n (b : bool) : nat := if b then 1 else 0.
Definition activeO (p : lpc) : nat := match p with LErr _ c => active c | _ => 0 end.

Record inv (s : state) : Prop := mkInv {
  inv_closed_req : closedChan s = true -> closeRequested s = true;
  inv_nclosed : nclosed s = b2n (closedChan s);
  inv_one_closer : active (pC1 s) + active (pC2 s) + activeO (pO s) + b2n (closedChan s) = b2n (closeRequested s);
  inv_queue : closedChan s = true -> sendMoved s = true /\ sendFull s = false;
  inv_held : forall h c, pO s = LErr h c -> h = keepLock s
}.

(* inverts H : (a cascade of matches on the state) = Some s' by cases on the scrutinees, outermost first *)
Ltac brk H :=
  repeat (cbv beta iota zeta in H;
          match type of H with
          | Some _ = Some _ => injection H as <-
          | None = Some _ => discriminate H
          | context [match ?x with _ => _ end] => destruct x eqn:?
          end).

(* the part of the state inv speaks about, and the part the underlay Close / event loop results speak about *)
Definition closing_view (s : state) :=
  (closedChan s, closeRequested s, nclosed s, (pC1 s, pC2 s, pO s), (sendMoved s, sendFull s, keepLock s)).
Definition underlay_view (s : state) := (pU s, pE s, udone s, readDL s, tickPending s).

Definition writes_reader (l : label) : bool := match l with ACallRead | TR | ATakeR => true | _ => false end.
Definition writes_closing (l : label) : bool :=
  match l with
  | ACallWrite | ACallClose1 | ACallClose2 | TC1 | TC2 | ATakeC1 | ATakeC2 | TO | TU | ESendFull _ | ESendMoved _ => true
  | _ => false
  end.
Definition writes_underlay (l : label) : bool :=
  match l with TE | ESegment | EReadTimeout | ACallUnderlayClose | TU | ETick => true | _ => false end.

(* what a step from s to s' leaves alone, given which of the three parts it may write (wr, wc, wu) *)
Record frame (wr wc wu : bool) (s s' : state) : Prop := {
  fr_variant : keepLock s' = keepLock s /\ fixedLoop s' = fixedLoop s;
  fr_monotone : (closedChan s = true -> closedChan s' = true) /\ (closeRequested s = true -> closeRequested s' = true)
                /\ (connDL s = true -> connDL s' = true) /\ (udone s = true -> udone s' = true);
  fr_reader : wr = false -> pR s' = pR s;
  fr_closing : wc = false -> closing_view s' = closing_view s;
  fr_underlay : wu = false -> underlay_view s' = underlay_view s }.
Arguments fr_variant {wr wc wu s s'}.
Arguments fr_monotone {wr wc wu s s'}.
Arguments fr_reader {wr wc wu s s'}.
Arguments fr_closing {wr wc wu s s'}.
Arguments fr_underlay {wr wc wu s s'}.

(* closeWithError, whoever runs it, writes the closing view only *)
Lemma closer_frame : forall one s s', call_close one s = Some s' \/ step_closer one s = Some s' -> frame false true false s s'.
Proof.
  intros one s s' [H|H]; [unfold call_close, close_begin in H|unfold step_closer in H].
  all: destruct one; brk H; repeat split; auto; discriminate.
Qed.

(* the session Close inside the underlay Close is closer C2: its call, its steps, and its return to the underlay Close *)
Lemma session_close_step : forall s s', step TU s = Some s' -> pU s = UCloseSession ->
  (call_close false s = Some s' \/ step_closer false s = Some s') \/ (pC2 s = CRet /\ s' = setU (setC false s CIdle) UWg).
Proof.
  intros s s' H PU. cbn [step] in H. rewrite PU in H.
  destruct (pC2 s); auto.
  injection H as <-. auto.
Qed.

Lemma frame_weaken : forall (wr wc wu wr' wc' wu' : bool) s s', frame wr wc wu s s' ->
  (wr' = false -> wr = false) -> (wc' = false -> wc = false) -> (wu' = false -> wu = false) -> frame wr' wc' wu' s s'.
Proof. intros wr wc wu wr' wc' wu' s s' [V M R C U] Hr Hc Hu. constructor; auto. Qed.

Lemma step_frame : forall l s s', step l s = Some s' -> frame (writes_reader l) (writes_closing l) (writes_underlay l) s s'.
Proof.
  intros l s s' H. destruct l; cbn [step] in H.
  19: { (* TU: the session Close runs as closer C2, and may so write the closing view *)
        pose proof (session_close_step s s' H) as C.
        destruct (pU s); try discriminate H.
        - destruct (C eq_refl) as [X|[_ ->]].
          + apply (frame_weaken false true false); [exact (closer_frame false s s' X)|auto..].
          + repeat split; auto; discriminate.
        - brk H; repeat split; auto; discriminate.
        - injection H as <-. repeat split; auto; discriminate. }
  (* the two labels that write a field with a value equal to the one it has *)
  13: { (* TW at WMove stores sendMoved s, which is true there *)
        brk H; repeat split; auto. intros _. unfold closing_view. cbn. congruence. }
  7: { (* ACallUnderlayClose stores udone s *) brk H; repeat split; auto; try discriminate. congruence. }
  all: try exact (closer_frame _ _ _ (or_introl H)).
  all: try exact (closer_frame _ _ _ (or_intror H)).
  all: brk H.
  all: repeat split; auto; discriminate.
Qed.

Lemma run_preserves : forall P : state -> Prop, (forall l s s', P s -> step l s = Some s' -> P s') ->
  forall ls s s', P s -> run s ls = Some s' -> P s'.
Proof.
  intros P HP. induction ls as [|a ls IH]; cbn [run]; intros s s' Ps H.
  - injection H as <-. exact Ps.
  - destruct (step a s) as [s1|] eqn:E; [|discriminate H]. exact (IH s1 s' (HP a s s1 Ps E) H).
Qed.

Lemma run_closed : forall ls s s', run s ls = Some s' -> closedChan s = true -> closedChan s' = true.
Proof.
  intros ls s s' H C. refine (run_preserves (fun x => closedChan x = true) _ ls s s' C H).
  intros l x x' Cx E. exact (proj1 (fr_monotone (step_frame l x x' E)) Cx).
Qed.

Lemma inv_view : forall s s', closing_view s' = closing_view s -> inv s -> inv s'.
Proof.
  unfold closing_view. intros s s' E [I1 I2 I3 I4 I5]. injection E as E1 E2 E3 E4 E5 E6 E7 E8 E9.
  constructor; rewrite ?E1, ?E2, ?E3, ?E4, ?E5, ?E6, ?E7, ?E8, ?E9; assumption.
Qed.

Lemma inv_setC : forall (one : bool) s p, inv s -> active (if one then pC1 s else pC2 s) = active p -> inv (setC one s p).
Proof.
  intros one s p [I1 I2 I3 I4 I5] A. constructor; try assumption.
  destruct one; cbn in *; rewrite <- A; exact I3.
Qed.

Lemma inv_setO : forall s p, inv s -> activeO (pO s) = activeO p -> (forall h c, p = LErr h c -> h = keepLock s) ->
  inv (setO s p).
Proof. intros s p [I1 I2 I3 I4 I5] A K. constructor; try assumption. cbn. rewrite <- A. exact I3. Qed.

Lemma inv_open : forall s, inv s -> closeRequested s = false -> closedChan s = false.
Proof.
  intros s I CR. destruct (closedChan s) eqn:CC; [|reflexivity]. rewrite (inv_closed_req s I CC) in CR. discriminate CR.
Qed.

Definition closers (s : state) : nat := active (pC1 s) + active (pC2 s) + activeO (pO s).

(* The two moments at which the closing sequence changes phase, whichever of the three program counters runs it:
   winning the CAS on closeRequested, and close(closedChan) after DeleteAll. *)
Lemma inv_cas_won : forall s s', inv s -> closeRequested s = false -> closeRequested s' = true ->
  (closedChan s', nclosed s', sendMoved s', sendFull s', keepLock s') = (closedChan s, nclosed s, sendMoved s, sendFull s, keepLock s) ->
  closers s' = 1 + closers s -> (forall h c, pO s' = LErr h c -> h = keepLock s) -> inv s'.
Proof.
  intros s s' I CR CR' E A K. pose proof (inv_open s I CR) as CC. destruct I as [_ I2 I3 _ _].
  injection E as E1 E2 E3 E4 E5. unfold closers in A. rewrite CC, CR in *. cbn in I3.
  constructor; rewrite ?E1, ?E2, ?E5, ?CR'; auto; try discriminate. cbn. lia.
Qed.

Lemma inv_finished : forall s s', inv s -> 0 < closers s -> closeRequested s' = closeRequested s ->
  (closedChan s', nclosed s', sendMoved s', sendFull s', keepLock s') = (true, S (nclosed s), true, false, keepLock s) ->
  1 + closers s' = closers s -> (forall h c, pO s' = LErr h c -> h = keepLock s) -> inv s'.
Proof.
  intros s s' [I1 I2 I3 I4 I5] P CR' E A K. injection E as E1 E2 E3 E4 E5. unfold closers in *.
  (* someone is active, so the close was requested and closedChan is still open *)
  assert (closedChan s = false /\ closeRequested s = true) as [CC CR]
    by (destruct (closedChan s), (closeRequested s); cbn in I3; split; reflexivity || lia).
  rewrite CC, CR in *. cbn in I3.
  constructor; rewrite ?E1, ?E2, ?E3, ?E4, ?E5, ?CR', ?I2; auto. cbn. lia.
Qed.

(* closeWithError, whoever runs it, keeps inv: the call wins or loses the CAS, the last step closes closedChan *)
Lemma closer_inv : forall one s s', inv s -> call_close one s = Some s' \/ step_closer one s = Some s' -> inv s'.
Proof.
  intros one s s' I [H|H]; [unfold call_close in H|unfold step_closer in H].
  all: destruct (if one then pC1 s else pC2 s) eqn:P; try discriminate H.
  (* CGrace, COLock, COutput: the closer stays active *)
  2-4: brk H; (apply inv_setC; [exact I|rewrite P; reflexivity]).
  - destruct (closeRequested s) eqn:CR; injection H as <-.
    + apply inv_setC; [exact I|]. rewrite P. reflexivity.
    + apply (inv_cas_won s); [exact I|exact CR|reflexivity|reflexivity| |exact (inv_held s I)].
      unfold closers, close_begin. destruct one; cbn in P |- *; rewrite P; destruct (attached s); cbn; lia.
  - injection H as <-. apply (inv_finished s); [exact I| |reflexivity|reflexivity| |exact (inv_held s I)];
      unfold closers; destruct one; cbn in P |- *; rewrite P; cbn; lia.
Qed.

Lemma step_inv : forall l s s', inv s -> step l s = Some s' -> inv s'.
Proof.
  intros l s s' I H. destruct (writes_closing l) eqn:W.
  2:{ exact (inv_view _ _ (fr_closing (step_frame _ _ _ H) W) I). }
  destruct l; try discriminate W; clear W; cbn [step] in H.
  (* ESendFull, ESendMoved: the send queue changes only while closedChan is open *)
  10, 11: destruct (closedChan s) eqn:CC; [discriminate H|]; injection H as <-;
    destruct I as [I1 I2 I3 I4 I5]; constructor; auto; cbn; congruence.
  - (* ACallWrite: sendMoved is reset only past the closeRequested test, so closedChan is open *)
    destruct (pW s); try discriminate H. destruct (closeRequested s) eqn:CR; injection H as <-.
    + apply (inv_view s); [reflexivity|exact I].
    + pose proof (inv_open s I CR) as CC. destruct I as [I1 I2 I3 I4 I5]. constructor; auto. cbn. congruence.
  - exact (closer_inv _ _ _ I (or_introl H)).
  - exact (closer_inv _ _ _ I (or_introl H)).
  - destruct (pC1 s) eqn:P; try discriminate H. injection H as <-. apply (inv_setC true); [exact I|rewrite P; reflexivity].
  - destruct (pC2 s) eqn:P; try discriminate H. injection H as <-. apply (inv_setC false); [exact I|rewrite P; reflexivity].
  - exact (closer_inv _ _ _ I (or_intror H)).
  - exact (closer_inv _ _ _ I (or_intror H)).
  - destruct (pO s) as [| | | |h c] eqn:PO; try discriminate H.
    + brk H; (apply inv_setO; [exact I|rewrite PO; reflexivity|discriminate]).
    + destruct (connDL s || netBroken s); [|destruct (negb (netStalled s)); [|discriminate H]]; injection H as <-.
      * apply inv_setO; [apply (inv_view s); [reflexivity|exact I]|cbn; rewrite PO; reflexivity|].
        intros h c [= <- _]. reflexivity.
      * apply inv_setO; [exact I|rewrite PO; reflexivity|discriminate].
    + (* the loop's own closeWithError: as call_close / step_closer, with the loop as the closer *)
      pose proof (inv_held s I h c PO) as K.
      assert (Same : forall c', active c = active c' -> inv (setO s (LErr h c'))).
      { intros c' A. apply inv_setO; [exact I|rewrite PO; exact A|]. intros h' c0 [= <- _]. exact K. }
      destruct c.
      2-4: brk H; apply Same; reflexivity.
      * destruct (closeRequested s) eqn:CR; injection H as <-; [apply Same; reflexivity|].
        apply (inv_cas_won s); [exact I|exact CR|reflexivity|reflexivity| |intros h' c [= <- _]; exact K].
        unfold closers. cbn. rewrite PO. destruct (attached s); cbn; lia.
      * injection H as <-. apply (inv_finished s); [exact I| |reflexivity|reflexivity| |intros h' c [= <- _]; exact K];
          unfold closers; cbn; rewrite PO; cbn; lia.
      * injection H as <-. apply inv_setO; [exact I|rewrite PO; reflexivity|discriminate].
  - (* TU: the session Close runs as closer C2 *)
    pose proof (session_close_step s s' H) as C.
    destruct (pU s); try discriminate H.
    + destruct (C eq_refl) as [X|[P ->]].
      * exact (closer_inv _ _ _ I X).
      * apply (inv_view (setC false s CIdle)); [reflexivity|].
        apply inv_setC; [exact I|rewrite P; reflexivity].
    + brk H. apply (inv_view s); [reflexivity|exact I].
    + injection H as <-. apply (inv_view s); [reflexivity|exact I].
Qed.

(* for every variant of the model; reachable fixes them to the code's (keepLock = false, fixedLoop = true) *)
Lemma inv_init : forall k f c a, inv (init_vv k f c a).
Proof. intros; constructor; cbn; intros; try discriminate; reflexivity. Qed.

Definition reachable (s : state) : Prop := exists c a ls, run (init c a) ls = Some s.

Lemma reachable_inv : forall s, reachable s -> inv s.
Proof. intros s (c & a & ls & H). exact (run_preserves inv step_inv ls _ s (inv_init _ _ c a) H). Qed.

Lemma one_active : forall s, inv s -> active (pC1 s) + active (pC2 s) + activeO (pO s) <= 1.
Proof. intros s [_ _ I3 _ _]. destruct (closeRequested s), (closedChan s); cbn in I3; lia. Qed.

Lemma later_close_noop : forall (one : bool) s, closeRequested s = true -> (if one then pC1 s else pC2 s) = CIdle ->
  call_close one s = Some (setC one s CRet).
Proof. intros one s H P. unfold call_close. rewrite P, H. reflexivity. Qed.

Lemma unblock_reader : forall s a, closedChan s = true -> pR s = RWait a ->
  exists s' c, step TR s = Some s' /\ pR s' = RRet c /\ (c = DATA \/ c = EOF).
Proof.
  intros s a H P. cbn [step]. rewrite P. unfold read_exits. rewrite H.
  destruct (recvNonEmpty s); cbn [app]; eexists; eexists; (split; [reflexivity|]); cbn; auto.
Qed.

Definition no_retake (ls : list label) : Prop := ~ In ATakeR ls.

Lemma reader_returned_stays : forall ls s s' c, pR s = RRet c -> no_retake ls -> run s ls = Some s' -> pR s' = RRet c.
Proof.
  induction ls as [|a ls IH]; cbn [run]; intros s s' c P N H.
  - injection H as <-. exact P.
  - destruct (step a s) as [s1|] eqn:E; [|discriminate H].
    apply (IH s1); [|intro X; apply N; right; exact X|exact H].
    destruct (writes_reader a) eqn:W.
    + (* a returned Read can only be taken *)
      destruct a; try discriminate W; cbn [step] in E; rewrite P in E; try discriminate E.
      destruct N. left. reflexivity.
    + rewrite (fr_reader (step_frame _ _ _ E) W). exact P.
Qed.

Lemma unblock_reader_run : forall ls s s' a,
  closedChan s = true -> pR s = RWait a -> no_retake ls -> run s ls = Some s' ->
  (In TR ls -> exists c, pR s' = RRet c /\ (c = DATA \/ c = EOF))
  /\ (~ In TR ls -> pR s' = RWait a /\ exists s'', step TR s' = Some s'').
Proof.
  induction ls as [|l ls IH]; cbn [run In]; intros s s' a C P N H.
  - injection H as <-. split; [tauto|]. intros _. split; [exact P|].
    destruct (unblock_reader s a C P) as (s2 & c & E & _). eauto.
  - destruct (step l s) as [s1|] eqn:E; [|discriminate H].
    assert (N' : no_retake ls) by (intro X; apply N; right; exact X).
    pose proof (proj1 (fr_monotone (step_frame l s s1 E)) C) as C1.
    destruct (writes_reader l) eqn:W.
    + (* of the reader's labels only TR is enabled while the Read waits *)
      destruct l; try discriminate W.
      1, 2: cbn [step] in E; rewrite P in E; discriminate E.
      destruct (unblock_reader s a C P) as (s2 & c & E2 & Pc & Hc). rewrite E2 in E. injection E as <-.
      split; [intros _|intros X; destruct X; left; reflexivity].
      exists c. split; [|exact Hc]. exact (reader_returned_stays ls s2 s' c Pc N' H).
    + assert (P1 : pR s1 = RWait a) by (rewrite (fr_reader (step_frame _ _ _ E) W); exact P).
      destruct (IH s1 s' a C1 P1 N' H) as [A B]. split.
      * intros [X|X]; [subst l; discriminate W|exact (A X)].
      * intros X. apply B. intro Y. apply X. right. exact Y.
Qed.

Lemma call_read_waits : forall s, pR s = RIdle -> recvNonEmpty s = false ->
  exists s1, step ACallRead s = Some s1 /\ pR s1 = RWait (rdSet s) /\ closedChan s1 = closedChan s.
Proof. intros s P D. cbn [step]. rewrite P, D. eexists. repeat split. Qed.

Lemma closer_start_bound : forall (one : bool) s s', call_close one s = Some s' ->
  mC (if one then pC1 s' else pC2 s') <= grace_iters + 4.
Proof.
  intros one s s' H. unfold call_close in H.
  assert (O : forall x p, (if one then pC1 (setC one x p) else pC2 (setC one x p)) = p) by (intros; destruct one; reflexivity).
  destruct (if one then pC1 s else pC2 s); try discriminate H.
  destruct (closeRequested s); injection H as <-; rewrite O; [apply Nat.le_0_l|].
  (* grace_iters stays folded: lia takes it as an atom *)
  unfold close_begin. destruct (attached _); cbn [mC]; lia.
Qed.

Lemma closer_step_decreases : forall one s s', step_closer one s = Some s' ->
  mC (if one then pC1 s' else pC2 s') < mC (if one then pC1 s else pC2 s).
Proof. intros one s s' H. unfold step_closer in H. destruct one; brk H; cbn; lia. Qed.

Lemma closer_step_others : forall (one : bool) s s', step_closer one s = Some s' ->
  (if one then pC2 s' else pC1 s') = (if one then pC2 s else pC1 s) /\ pO s' = pO s.
Proof. intros one s s' H. unfold step_closer in H. destruct one; brk H; split; reflexivity. Qed.

Lemma closer_enabled : forall (one : bool) s, active (if one then pC1 s else pC2 s) = 1 ->
  olock_free s = true \/ (if one then pC1 s else pC2 s) <> COLock ->
  net_ok s = true \/ (if one then pC1 s else pC2 s) <> COutput ->
  exists s', step_closer one s = Some s'.
Proof.
  intros one s A L N. unfold step_closer. destruct (if one then pC1 s else pC2 s); try discriminate A.
  - destruct n; [eexists; reflexivity|]. destruct (olock_free s && net_ok s && negb (outputErr s)); eexists; reflexivity.
  - destruct L as [L|L]; [rewrite L; eexists; reflexivity|congruence].
  - destruct N as [N|N]; [rewrite N; eexists; reflexivity|congruence].
  - eexists; reflexivity.
Qed.

Definition stall_trace : list label :=
  [ENetStall true; TO; ACallClose1] ++ repeat TC1 (S grace_iters).

Lemma underlay_close_releases : forall s, run (init true true) stall_trace = Some s ->
  exists s', run s [ACallUnderlayClose; TO; TO; TO; TC1; TC1; TC1; TO; TI; TU; TU; TU; TU] = Some s'
    /\ closedChan s' = true /\ pC1 s' = CRet /\ pO s' = LExited /\ pI s' = LExited /\ pU s' = URet /\ udone s' = true /\ nclosed s' = 1.
Proof.
  intros s H. vm_compute in H. injection H as <-. vm_compute. eexists. repeat split; reflexivity.
Qed.

(* what is left of the closing sequence, whoever runs it: mC / mE / mO count the own steps to CRet / back to LRun
   (LConnWrite = 8 lies above LErr _ CIdle = 7), so every step of the sequence lowers its summand.  Not a variant of the
   system: the output loop's LRun -> LConnWrite raises it, and with failing I/O the loop can cycle through LErr while
   another closer is active; the results over it say that a lowering step is enabled (no deadlock) *)
Definition closing_measure (s : state) : nat := mC (pC1 s) + mC (pC2 s) + mO (pO s).

Lemma olock_free_iff : forall s, olock_free s = true <->
  (pO s <> LConnWrite /\ (forall c, pO s <> LErr true c) /\ pO s <> LErr false COutput)
  /\ pC1 s <> COutput /\ pC2 s <> COutput.
Proof.
  intros s. unfold olock_free. rewrite !andb_true_iff, !negb_true_iff.
  assert (C : forall p : cpc, match p with COutput => true | _ => false end = false <-> p <> COutput)
    by (intros p; destruct p; split; congruence).
  rewrite !C.
  assert (O : match pO s with LConnWrite | LErr true _ | LErr false COutput => true | _ => false end = false <->
              pO s <> LConnWrite /\ (forall c, pO s <> LErr true c) /\ pO s <> LErr false COutput).
  { split.
    - intros E. repeat split; intros; intros X; rewrite X in E; discriminate E.
    - (* every value of pO s but the three holders gives false by computation *)
      intros (A & B & D). destruct (pO s) as [| | | |[] []]; try reflexivity; exfalso;
        first [exact (A eq_refl)|exact (B _ eq_refl)|exact (D eq_refl)]. }
  rewrite O. tauto.
Qed.

(* Whoever waits for the output lock as the active closer finds it free, unless the loop is inside conn.Write: any other
   holder is at COutput, hence a second active closer, or is the loop keeping the lock across its own close. *)
Lemma lock_wait : forall s, inv s -> keepLock s = false ->
  pC1 s = COLock \/ pC2 s = COLock \/ pO s = LErr false COLock -> olock_free s = true \/ pO s = LConnWrite.
Proof.
  intros s I K W. pose proof (one_active s I) as A.
  assert (NK : forall c, pO s <> LErr true c) by (intros c E; pose proof (inv_held s I _ _ E) as X; rewrite K in X; discriminate X).
  assert (D : pO s = LConnWrite \/ pO s <> LConnWrite) by (destruct (pO s); auto; right; discriminate).
  destruct D as [D|D]; [right; exact D|left]. apply olock_free_iff.
  (* NK and D are two of the five conjuncts; in the other three a holder at COutput (E) is active beside the waiter at
     COLock (W), against A, unless E and W speak of the same thread and contradict each other *)
  repeat split; trivial; intros E; rewrite E in *;
    destruct W as [W|[W|W]]; try discriminate W; rewrite W in A; cbn in A; lia.
Qed.

Lemma output_loop_error_path_not_stuck : forall s h c,
  inv s -> keepLock s = false -> (connDL s = true \/ netBroken s = true) -> pO s = LErr h c ->
  h = false /\ exists s', step TO s = Some s' /\ mO (pO s') < mO (pO s) /\ mO (pO s) <= 7 + (match c with CGrace n => n + 1 | _ => 0 end).
Proof.
  intros s h c I K N PO.
  assert (NO : net_ok s = true) by (unfold net_ok; destruct N as [N|N]; rewrite N; auto with bool).
  assert (Hh : h = false) by (rewrite (inv_held s I _ _ PO); exact K). subst h. split; [reflexivity|].
  cbn [step]. rewrite PO.
  destruct c; cbn [negb andb].
  - destruct (closeRequested s); [|destruct (attached _)]; eexists; (split; [reflexivity|]); cbn; lia.
  - eexists; (split; [reflexivity|]); cbn; lia.
  - destruct (lock_wait s I K (or_intror (or_intror PO))) as [F|F]; [|congruence].
    rewrite F. eexists; (split; [reflexivity|]); cbn; lia.
  - rewrite NO. eexists; (split; [reflexivity|]); cbn; lia.
  - eexists; (split; [reflexivity|]); cbn; lia.
  - eexists; (split; [reflexivity|]); cbn; lia.
Qed.

Lemma closer_progress : forall (one : bool) s, inv s -> keepLock s = false -> (connDL s = true \/ netBroken s = true) ->
  active (if one then pC1 s else pC2 s) = 1 ->
  exists l s', In l [TC1; TC2; TO] /\ step l s = Some s' /\ closing_measure s' < closing_measure s.
Proof.
  intros one s I K N A.
  assert (DB : connDL s || netBroken s = true) by (destruct N as [N|N]; rewrite N; auto with bool).
  assert (NO : net_ok s = true) by (unfold net_ok; rewrite <- orb_assoc, DB; apply orb_true_r).
  assert (L : (olock_free s = true \/ (if one then pC1 s else pC2 s) <> COLock) \/ pO s = LConnWrite).
  { destruct (if one then pC1 s else pC2 s) eqn:P; try (left; right; discriminate).
    destruct (lock_wait s I K) as [F|F]; auto. destruct one; auto. }
  destruct L as [L|L].
  - destruct (closer_enabled one s A L (or_introl NO)) as (s' & E).
    pose proof (closer_step_decreases one s s' E) as D. destruct (closer_step_others one s s' E) as [O1 O2].
    exists (if one then TC1 else TC2), s'. split; [destruct one; cbn; tauto|]. split; [destruct one; exact E|].
    unfold closing_measure. rewrite O2. destruct one; rewrite O1; lia.
  - exists TO. cbn [step]. rewrite L, DB. eexists. split; [do 2 right; left; reflexivity|]. split; [reflexivity|].
    unfold closing_measure. cbn. rewrite L. cbn. lia.
Qed.

Lemma loop_close_progress : forall s h c,
  inv s -> keepLock s = false -> (connDL s = true \/ netBroken s = true) -> pO s = LErr h c ->
  exists l s', In l [TC1; TC2; TO] /\ step l s = Some s' /\ closing_measure s' < closing_measure s.
Proof.
  intros s h c I K N PO. destruct (output_loop_error_path_not_stuck s h c I K N PO) as (_ & s' & E & D & _).
  assert (pC1 s' = pC1 s /\ pC2 s' = pC2 s) as [O1 O2] by (cbn [step] in E; brk E; split; reflexivity).
  exists TO, s'. split; [do 2 right; left; reflexivity|]. split; [exact E|]. unfold closing_measure. rewrite O1, O2. lia.
Qed.

Definition self_deadlock_trace : list label :=
  [ACallRead; ENetBreak; TO; TO; TO; ACallClose1; ACallUnderlayClose; TU; TU].

Lemma output_error_close_code_completes :
  exists s, run (init true true) (self_deadlock_trace ++ [TO; TO; TO; TO; TO; TI; TR; TU; TU]) = Some s
    /\ closedChan s = true /\ nclosed s = 1 /\ pO s = LExited /\ pI s = LExited /\ pR s = RRet EOF /\ pU s = URet /\ udone s = true.
Proof. vm_compute. eexists. repeat split; reflexivity. Qed.

Definition rearm_trace : list label := [TE; TE; ACallUnderlayClose; TE; TE; TE; TU; TU; TU; TU; TO; TI; TU].

(* once the underlay Close is past close(done), done is closed *)
Definition invK (s : state) : Prop := (pU s = USecondDL \/ pU s = URet) -> udone s = true.

Lemma invK_init : forall k f c a, invK (init_vv k f c a).
Proof. intros k f c a [H|H]; discriminate H. Qed.

Lemma step_invK : forall l s s', invK s -> step l s = Some s' -> invK s'.
Proof.
  intros l s s' K H. unfold invK in *. destruct (writes_underlay l) eqn:W.
  2:{ pose proof (fr_underlay (step_frame _ _ _ H) W) as E. injection E as EU _ ED _ _. rewrite EU, ED. exact K. }
  destruct l; try discriminate W; clear W; cbn [step] in H.
  (* the event loop's own steps and the ticker leave pU and udone alone *)
  2, 4-6: assert (pU s' = pU s /\ udone s' = udone s) as [-> ->] by (brk H; split; reflexivity || assumption); exact K.
  - (* ACallUnderlayClose returns at once only when done is closed *)
    brk H; cbn; [auto|intros [X|X]; discriminate X].
  - pose proof (session_close_step s s' H) as C.
    destruct (pU s) eqn:PU; try discriminate H.
    + (* the session Close: the underlay Close stays where it is or goes on to wait for the loops *)
      destruct (C eq_refl) as [X|[_ ->]].
      * injection (fr_underlay (closer_frame false s s' X) eq_refl) as -> _ _ _ _.
        rewrite PU. intros [Y|Y]; discriminate Y.
      * intros [Y|Y]; discriminate Y.
    + brk H; intros _; reflexivity.
    + injection H as <-. intros _. apply K. left. reflexivity.
Qed.

(* the underlay Close of the fixed code has returned *)
Definition released (s : state) : Prop :=
  fixedLoop s = true /\ pU s = URet /\ udone s = true /\ (pE s = ERead -> readDL s = true).

Lemma released_established : forall s s', invK s -> fixedLoop s = true -> pU s = USecondDL -> step TU s = Some s' -> released s'.
Proof. intros s s' K F P H. cbn [step] in H. rewrite P in H. injection H as <-. repeat split; auto; discriminate. Qed.

Lemma released_step : forall l s s', released s -> step l s = Some s' -> released s'.
Proof.
  intros l s s' (F & P & D & R) H. unfold released. destruct (writes_underlay l) eqn:W.
  - (* Close has returned and stopped the ticker: of these labels only the event loop's are enabled *)
    destruct l; try discriminate W; cbn [step] in H; rewrite ?P, ?F, ?D in H; brk H; repeat split; auto; discriminate.
  - (* fixedLoop from fr_variant; pU, pE, udone, readDL from the view *)
    destruct (step_frame _ _ _ H) as [[_ ->] _ _ _ E]. injection (E W) as -> -> -> -> _. auto.
Qed.

(* mEv counts the event loop's own steps to EExited once done is closed.  A pending tick weighs 3: from ERun the tick
   wins over done, the loop goes to EArmed (2) and is back at ERun (1) two steps later, without the tick. *)
Lemma mEv_range : forall s, mEv s <= 6 /\ (mEv s = 0 -> pE s = EExited).
Proof. intros s. unfold mEv. destruct (pE s), (tickPending s); cbn; split; intros; try reflexivity; lia. Qed.

Lemma released_progress : forall s, released s -> pE s <> EExited -> exists s', step TE s = Some s' /\ mEv s' < mEv s.
Proof.
  intros s (F & P & D & R) NE. unfold mEv. cbn [step].
  destruct (pE s) eqn:PE; try congruence.
  - destruct (tickPending s) eqn:T; [|rewrite D]; eexists; (split; [reflexivity|]); cbn; rewrite ?T; cbn; lia.
  - rewrite F, D. eexists; (split; [reflexivity|]); cbn; destruct (tickPending s); cbn; lia.
  - rewrite (R eq_refl). eexists; (split; [reflexivity|]); cbn; destruct (tickPending s); cbn; lia.
  - rewrite D, !orb_true_r. eexists; (split; [reflexivity|]); cbn; destruct (tickPending s); cbn; lia.
Qed.

Lemma released_others_do_not_delay : forall l s s', released s -> step l s = Some s' -> l <> TE -> mEv s' <= mEv s.
Proof.
  intros l s s' (F & P & D & R) H N. unfold mEv. destruct (writes_underlay l) eqn:W.
  - destruct l; try discriminate W; try congruence; cbn [step] in H; rewrite ?P in H; brk H; cbn; lia.
  - injection (fr_underlay (step_frame _ _ _ H) W) as _ -> _ _ ->. lia.
Qed.

Lemma reachable_invK : forall s, reachable s -> invK s.
Proof. intros s (c & a & ls & H). exact (run_preserves invK step_invK ls _ s (invK_init _ _ c a) H). Qed.

(* reachable starts from the code's variant of the model, and no step changes the variant *)
Lemma reachable_variant : forall s, reachable s -> keepLock s = false /\ fixedLoop s = true.
Proof.
  intros s (c & a & ls & H).
  refine (run_preserves (fun x => keepLock x = false /\ fixedLoop x = true) _ ls (init c a) s (conj eq_refl eq_refl) H).
  intros l x x' Vx E. destruct (fr_variant (step_frame _ _ _ E)) as [-> ->]. exact Vx.
Qed.

Lemma clean_one_keeps_or_closes : forall u,
  clean_one u = u \/ (u_done (clean_one u) = true /\ u_listed (clean_one u) = false).
Proof. intros [d l n i]. unfold clean_one. simpl. destruct l, d; auto; destruct (n =? 0), i; auto. Qed.

Lemma clean_one_tracked : forall u, tracked u = true -> tracked (clean_one u) = true.
Proof.
  intros u H. destruct (clean_one_keeps_or_closes u) as [->|[D _]]; [exact H|].
  unfold tracked. rewrite D. reflexivity.
Qed.

Lemma mux_close_one_done : forall u, tracked u = true -> u_done (mux_close_one u) = true.
Proof. intros [d l n i] H. unfold mux_close_one, tracked in *. simpl in *. destruct l, d; auto. Qed.

Lemma forallb_map_imp : forall (P Q : urec -> bool) (f : urec -> urec) l,
  (forall u, P u = true -> Q (f u) = true) -> forallb P l = true -> forallb Q (map f l) = true.
Proof.
  induction l; simpl; intros Hf H; auto. apply andb_true_iff in H. destruct H as [A B].
  rewrite (Hf _ A), (IHl Hf B). reflexivity.
Qed.

Lemma forallb_upd : forall (P : urec -> bool) (f : urec -> urec) l i,
  (forall u, P u = true -> P (f u) = true) -> forallb P l = true -> forallb P (upd l i f) = true.
Proof.
  induction l; simpl; intros i Hf H; auto. apply andb_true_iff in H. destruct H as [A B].
  destruct i; simpl; [rewrite (Hf _ A), B|rewrite A, (IHl i Hf B)]; reflexivity.
Qed.

Lemma mux_step_tracked : forall l o, forallb tracked l = true -> forallb tracked (mux_step clean_one l o) = true.
Proof.
  intros l o H. destruct o; simpl.
  - rewrite forallb_app, H. reflexivity.
  - eapply forallb_map_imp; [apply clean_one_tracked|exact H].
  - apply forallb_upd; auto.
  - apply forallb_upd; auto.
  - eapply forallb_map_imp; [|exact H]. intros u T. unfold tracked. rewrite (mux_close_one_done u T). reflexivity.
Qed.

Lemma mux_run_tracked : forall ops l, forallb tracked l = true -> forallb tracked (mux_run clean_one l ops) = true.
Proof.
  unfold mux_run. induction ops; simpl; intros l H; auto. apply IHops. apply mux_step_tracked. exact H.
Qed.

Lemma mux_clean_dropping_refuted :
  exists ops, forallb tracked (mux_run clean_one_dropping [] ops) = false
    /\ forallb u_done (mux_step clean_one_dropping (mux_run clean_one_dropping [] ops) MClose) = false
    /\ forallb u_done (mux_step clean_one (mux_run clean_one [] ops) MClose) = true.
Proof. exists [MNew; MEnv 0 2 true; MClean]. vm_compute. repeat split; reflexivity. Qed.

Lemma close_request_whenever_peer_may_hold :
  (forall st, peer_may_hold st = true -> code_sends_close_request st = true)
  /\ (exists st, peer_may_hold st = true /\ established_only_sends_close_request st = false).
Proof. split; [intros [] H; auto|exists SAttached; auto]. Qed.
