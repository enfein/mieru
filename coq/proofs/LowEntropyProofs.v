(* C17, model/LowEntropy.v: a chunk is a 64-bit word ([enc_word]); round trip and canonicity word by word, then chunk
   by chunk, then along the two loops. *)
From Coq Require Import NArith ZArith List Bool Lia.
From M Require Import gen.Consts base.Bits64 model.LowEntropy proofs.Bits64Proofs.
Import ListNotations.
Open Scope N_scope.

Lemma chunk_len_8 : chunk_len = 8%nat.
Proof. reflexivity. Qed.

Lemma firstn_app_exact {A} n (l1 l2 : list A) : length l1 = n -> firstn n (l1 ++ l2) = l1.
Proof. intro H. subst n. rewrite firstn_app, Nat.sub_diag, firstn_all. cbn. apply app_nil_r. Qed.
Lemma skipn_app_exact {A} n (l1 l2 : list A) : length l1 = n -> skipn n (l1 ++ l2) = l2.
Proof. intro H. subst n. rewrite skipn_app, Nat.sub_diag, skipn_all. reflexivity. Qed.

Lemma bytes_ok_split n l : bytes_ok l -> bytes_ok (firstn n l) /\ bytes_ok (skipn n l).
Proof. intro H. apply Forall_app. rewrite firstn_skipn. exact H. Qed.

Lemma pow256_nz n : 256 ^ n <> 0.
Proof. apply N.pow_nonzero. discriminate. Qed.
Lemma pow256_pow2 n : 256 ^ n = 2 ^ (8 * n).
Proof. rewrite N.pow_mul_r. reflexivity. Qed.

Lemma be_val_snoc l b : be_val (l ++ [b]) = be_val l * 256 + b.
Proof. unfold be_val. rewrite fold_left_app. reflexivity. Qed.

Lemma be_bytes_length n : forall v, length (be_bytes n v) = n.
Proof. induction n as [|n IH]; intro v; cbn [be_bytes]; [reflexivity|]. rewrite app_length, IH. cbn. lia. Qed.

Lemma be_bytes_ok n : forall v, bytes_ok (be_bytes n v).
Proof.
  induction n as [|n IH]; intro v; cbn [be_bytes]; [constructor|].
  apply Forall_app. split; [apply IH|]. constructor; [|constructor].
  unfold byte_ok. apply N.mod_lt. discriminate.
Qed.

Lemma be_val_bytes n : forall v, be_val (be_bytes n v) = v mod 256 ^ N.of_nat n.
Proof.
  induction n as [|n IH]; intro v; cbn [be_bytes].
  - change (256 ^ N.of_nat 0) with 1. rewrite N.mod_1_r. reflexivity.
  - rewrite be_val_snoc, IH, Nat2N.inj_succ, N.pow_succ_r'.
    rewrite (N.mod_mul_r v 256) by (try apply pow256_nz; discriminate). lia.
Qed.

Lemma be_val_lt l : bytes_ok l -> be_val l < 256 ^ N.of_nat (length l).
Proof.
  induction l as [|b l IH] using rev_ind; intro H.
  - cbn. lia.
  - apply Forall_app in H. destruct H as [Hl Hb]. inversion Hb as [|? ? Hb' _]; subst.
    unfold byte_ok in Hb'. specialize (IH Hl).
    rewrite be_val_snoc, app_length. cbn [length]. rewrite Nat.add_1_r, Nat2N.inj_succ, N.pow_succ_r'. lia.
Qed.

Lemma div_mod_256 a b : b < 256 -> (a * 256 + b) / 256 = a /\ (a * 256 + b) mod 256 = b.
Proof. intro H. split; symmetry; [apply N.div_unique with b | apply N.mod_unique with a]; lia. Qed.

Lemma be_bytes_val l : bytes_ok l -> be_bytes (length l) (be_val l) = l.
Proof.
  induction l as [|b l IH] using rev_ind; intro H; [reflexivity|].
  apply Forall_app in H. destruct H as [Hl Hb]. inversion Hb as [|? ? Hb' _]; subst.
  destruct (div_mod_256 (be_val l) b Hb') as [Ed Em].
  rewrite app_length. cbn [length]. rewrite Nat.add_1_r. cbn [be_bytes].
  rewrite be_val_snoc, Ed, Em, IH by exact Hl. reflexivity.
Qed.

Lemma be_bytes_mod n : forall v, be_bytes n (v mod 256 ^ N.of_nat n) = be_bytes n v.
Proof.
  induction n as [|n IH]; intro v; cbn [be_bytes]; [reflexivity|].
  rewrite Nat2N.inj_succ, N.pow_succ_r'.
  rewrite (N.mod_mul_r v 256) by (try apply pow256_nz; discriminate).
  destruct (div_mod_256 ((v / 256) mod 256 ^ N.of_nat n) (v mod 256)) as [Ed Em]; [apply N.mod_lt; discriminate|].
  rewrite N.add_comm, N.mul_comm, Ed, Em, IH. reflexivity.
Qed.

(* The 64-bit word of one chunk: the k = 8 * (source bytes) data bits s deposited under the chunk mask M; the other
   positions, [pad_mask M k] (paddingMask of the Go code), all carry the padding bit. *)
Definition pad_mask (M k : N) : N := not64 (pdep (lowbits k) M).
Definition enc_word (M k : N) (pb : bool) (s : N) : N :=
  if pb then N.lor (pdep s M) (pad_mask M k) else pdep s M.

Lemma lowbits_ones k : k < 64 -> lowbits k = N.ones k.
Proof. intro Hk64. unfold lowbits. rewrite (proj2 (N.leb_gt 64 k) Hk64). reflexivity. Qed.

Lemma src_sub_data M k s : k < 64 -> s < 2 ^ k -> N.land (pdep s M) (pdep (lowbits k) M) = pdep s M.
Proof.
  intros Hk64 Hs. rewrite <- pdep_land, lowbits_ones, N.land_ones, N.mod_small by assumption. reflexivity.
Qed.

(* [M <> ones64] is more than needed (k < 64 data bits leave a padding position under any M); the masks of the valid
   modes have fewer than 64 one-bits *)
Lemma pad_mask_nz M k : M < W64 -> M <> ones64 -> pad_mask M k <> 0.
Proof.
  intros HM HMo HP. apply HMo. apply N.lxor_eq in HP.
  rewrite <- (land_ones64 M HM), <- HP, N.land_comm. apply pdep_sub_mask.
Qed.

Lemma enc_word_lt M k pb s : M < W64 -> enc_word M k pb s < W64.
Proof.
  intro HM. unfold enc_word, pad_mask.
  destruct pb; [apply lor_lt_W64; [|apply not64_lt_W64]|]; apply pdep_lt_W64, HM.
Qed.

Lemma enc_word_pad M k pb s : M < W64 -> k < 64 -> s < 2 ^ k ->
  N.land (enc_word M k pb s) (pad_mask M k) = if pb then pad_mask M k else 0.
Proof.
  intros HM Hk64 Hs. unfold enc_word. destruct pb; [apply land_lor_absorb|].
  rewrite <- (src_sub_data M k s Hk64 Hs), <- N.land_assoc. unfold pad_mask.
  rewrite land_not64 by apply pdep_lt_W64, HM. apply N.land_0_r.
Qed.

(* depositing the low k bits that PEXT reads off the padding gives pad & M & data = 0 *)
Lemma pext_pad_low M k : M < W64 -> k <= popcount M -> k < 64 -> pext (pad_mask M k) M mod 2 ^ k = 0.
Proof.
  intros HM Hk Hk64. set (z := pext (pad_mask M k) M mod 2 ^ k).
  assert (Hz : z < 2 ^ popcount M).
  { apply N.lt_le_trans with (2 ^ k); [apply N.mod_lt, N.pow_nonzero; discriminate|].
    apply N.pow_le_mono_r; [discriminate | exact Hk]. }
  rewrite <- (N.mod_small z _ Hz), <- pext_pdep. replace (pdep z M) with 0; [apply pext_0|].
  unfold z. rewrite <- N.land_ones, pdep_land, pdep_pext, <- lowbits_ones by exact Hk64.
  rewrite <- N.land_assoc, (N.land_comm M), pdep_sub_mask, N.land_comm.
  symmetry. apply land_not64, pdep_lt_W64, HM.
Qed.

Lemma enc_word_data M k pb s : M < W64 -> k <= popcount M -> k < 64 -> s < 2 ^ k ->
  pext (enc_word M k pb s) M mod 2 ^ k = s.
Proof.
  intros HM Hk Hk64 Hs.
  assert (E : pext (pdep s M) M mod 2 ^ k = s).
  { rewrite pext_pdep, (N.mod_small s (2 ^ popcount M)); [apply N.mod_small, Hs|].
    apply N.lt_le_trans with (2 ^ k); [exact Hs | apply N.pow_le_mono_r; [discriminate | exact Hk]]. }
  unfold enc_word. destruct pb; [|exact E].
  rewrite pext_lor, <- N.land_ones, N.land_lor_distr_l, !N.land_ones, E, pext_pad_low by assumption.
  apply N.lor_0_r.
Qed.

(* a 64-bit word with uniform padding is the encoding of the data PEXT reads off it, whatever the weight of the mask *)
Lemma enc_word_canon M k (pb : bool) c : M < W64 -> k < 64 -> c < W64 ->
  N.land c (pad_mask M k) = (if pb then pad_mask M k else 0) ->
  enc_word M k pb (pext c M mod 2 ^ k) = c.
Proof.
  intros HM Hk64 Hc Hpad. unfold enc_word. set (D := pdep (lowbits k) M).
  replace (pdep (pext c M mod 2 ^ k) M) with (N.land c D).
  2:{ rewrite <- N.land_ones, pdep_land, pdep_pext, <- lowbits_ones by exact Hk64. fold D.
      rewrite <- N.land_assoc, (N.land_comm M). unfold D. rewrite pdep_sub_mask. reflexivity. }
  assert (J : N.lor (N.land c D) (N.land c (pad_mask M k)) = c).
  { rewrite <- N.land_lor_distr_r. unfold pad_mask. fold D.
    rewrite lor_not64 by apply pdep_lt_W64, HM. apply land_ones64, Hc. }
  rewrite Hpad in J. destruct pb; [exact J | rewrite N.lor_0_r in J; exact J].
Qed.

Lemma enc_chunk_word M pb g :
  enc_chunk M pb g = be_bytes chunk_len (enc_word M (8 * N.of_nat (length g)) pb (be_val g)).
Proof. reflexivity. Qed.
Lemma enc_chunk_length M pb g : length (enc_chunk M pb g) = chunk_len.
Proof. apply be_bytes_length. Qed.
Lemma enc_chunk_ok M pb g : bytes_ok (enc_chunk M pb g).
Proof. apply be_bytes_ok. Qed.

Lemma pow256_8 : 256 ^ N.of_nat 8 = W64.
Proof. reflexivity. Qed.

Lemma dec_chunk_inv M L pbo g pb bs : dec_chunk M L pbo g = Ok (pb, bs) ->
  length g = chunk_len /\ bs = be_bytes L (pext (be_val g) M) /\
  N.land (be_val g) (pad_mask M (8 * N.of_nat L)) = (if pb then pad_mask M (8 * N.of_nat L) else 0) /\
  (forall p, pbo = Some p -> pb = p).
Proof.
  unfold dec_chunk. fold (pad_mask M (8 * N.of_nat L)).
  destruct (Nat.eqb_spec (length g) chunk_len) as [El|]; cbn [negb]; [|discriminate].
  set (c := be_val g). set (PM := pad_mask M (8 * N.of_nat L)).
  (* expected padding all ones, all zeros, or not known yet: the test that succeeded gives the third conjunct *)
  destruct pbo as [[|]|].
  - destruct (N.eqb_spec (N.land c PM) PM) as [E|_]; [intros [= <- <-] | discriminate].
    repeat split; try assumption. intros p [= <-]. reflexivity.
  - destruct (N.eqb_spec (N.land c PM) 0) as [E|_]; [intros [= <- <-] | discriminate].
    repeat split; try assumption. intros p [= <-]. reflexivity.
  - destruct (N.eqb_spec (N.land c PM) 0) as [E|_].
    + intros [= <- <-]. repeat split; try assumption. discriminate.
    + destruct (N.eqb_spec (N.land c PM) PM) as [E|_]; [intros [= <- <-] | discriminate].
      repeat split; try assumption. discriminate.
Qed.

(* decode after encode *)
Lemma enc_dec_chunk M pb pbo g :
  M < W64 -> M <> ones64 -> bytes_ok g ->
  8 * N.of_nat (length g) <= popcount M -> 8 * N.of_nat (length g) < 64 ->
  (pbo = None \/ pbo = Some pb) ->
  dec_chunk M (length g) pbo (enc_chunk M pb g) = Ok (pb, g).
Proof.
  intros HM HMo Hg Hk Hk64 Hpbo.
  unfold dec_chunk. rewrite enc_chunk_length, Nat.eqb_refl, enc_chunk_word. cbn [negb].
  set (k := 8 * N.of_nat (length g)) in *. fold (pad_mask M k).
  assert (Hs : be_val g < 2 ^ k). { unfold k. rewrite <- pow256_pow2. apply be_val_lt, Hg. }
  rewrite be_val_bytes, chunk_len_8, pow256_8, N.mod_small by apply enc_word_lt, HM.
  rewrite <- be_bytes_mod, pow256_pow2. fold k.
  rewrite enc_word_data, enc_word_pad, be_bytes_val by assumption.
  pose proof (pad_mask_nz M k HM HMo) as Hnz. apply N.eqb_neq in Hnz.
  destruct pb.
  - rewrite N.eqb_refl, Hnz. destruct Hpbo as [-> | ->]; reflexivity.
  - cbn [N.eqb]. destruct Hpbo as [-> | ->]; reflexivity.
Qed.

(* encode after decode *)
Lemma dec_enc_chunk M L pbo g pb bs :
  M < W64 -> 8 * N.of_nat L < 64 -> bytes_ok g ->
  dec_chunk M L pbo g = Ok (pb, bs) ->
  (forall p, pbo = Some p -> pb = p) /\ length g = chunk_len /\ length bs = L /\ bytes_ok bs /\
  enc_chunk M pb bs = g.
Proof.
  intros HM Hk64 Hg Hdec. destruct (dec_chunk_inv _ _ _ _ _ _ Hdec) as (El & Hbs & Hpad & Hpbo).
  assert (Hc : be_val g < W64).
  { pose proof (be_val_lt g Hg) as H. rewrite El, chunk_len_8, pow256_8 in H. exact H. }
  assert (Hlen : length bs = L) by (rewrite Hbs; apply be_bytes_length).
  repeat split; [exact Hpbo | exact El | exact Hlen | rewrite Hbs; apply be_bytes_ok |].
  rewrite enc_chunk_word, Hlen.
  replace (be_val bs) with (pext (be_val g) M mod 2 ^ (8 * N.of_nat L))
    by (rewrite Hbs, be_val_bytes, pow256_pow2; reflexivity).
  rewrite enc_word_canon by assumption. rewrite <- El. apply be_bytes_val, Hg.
Qed.

(* the table of docs/protocol.md *)
Lemma mode_params_table mode c w :
  mode_params mode = Some (c, w) <->
  In (mode, c, w) [(1, 4, 16); (2, 5, 20); (3, 6, 24); (4, 7, 28)]%Z.
Proof.
  split.
  - unfold mode_params. destruct ((0 <=? mode) && (mode <? 8))%Z eqn:E; [|discriminate].
    apply andb_true_iff in E. destruct E as [E1 E2]. apply Z.leb_le in E1. apply Z.ltb_lt in E2.
    rewrite <- (Z2Nat.id mode E1) in E2 |- *. rewrite Nat2Z.id.
    destruct (Z.to_nat mode) as [|[|[|[|[|k]]]]]; cbn.
    + discriminate.
    + intros [= <- <-]. left. reflexivity.
    + intros [= <- <-]. right; left. reflexivity.
    + intros [= <- <-]. do 2 right; left. reflexivity.
    + intros [= <- <-]. do 3 right; left. reflexivity.
    + (* slots 5, 6, 7 hold 0 like slot 0; there is no slot 8 *)
      destruct k as [|[|[|k]]]; cbn; [discriminate .. | lia].
  - cbn. intros [H|[H|[H|[H|[]]]]]; inversion H; reflexivity.
Qed.

Lemma mode_params_facts mode c w : mode_params mode = Some (c, w) -> (1 <= c <= 7 /\ 2 * w = 8 * c)%Z.
Proof.
  intro H. apply mode_params_table in H. cbn in H.
  destruct H as [[= _ <- <-]|[[= _ <- <-]|[[= _ <- <-]|[[= _ <- <-]|[]]]]]; lia.
Qed.

(* every rotation count the model forms is a residue mod 64 *)
Lemma rotate_mask_facts init rot i : init < W64 ->
  rotate_mask init rot i < W64 /\ popcount (rotate_mask init rot i) = popcount init.
Proof.
  intro H. unfold rotate_mask.
  assert (Hs : forall z, Z.to_N (z mod 64) <= 64) by (intro z; pose proof (Z.mod_pos_bound z 64); lia).
  destruct ((rot =? C17_rotNone)%Z || (i =? 0))%bool; [split; [exact H|reflexivity]|].
  destruct (rot <=? C17_rotRight15)%Z; (split; [apply rotl64_lt | apply popcount_rotl64]); auto.
Qed.

Lemma nchunks_step n c : (1 <= n -> 1 <= c -> nchunks n c = 1 + nchunks (Z.max 0 (n - c)) c)%Z.
Proof.
  intros Hn Hc. unfold nchunks.
  assert (Hcase : (n < c \/ n = c \/ n > c)%Z) by lia. destruct Hcase as [Hlt|[Heq|Hgt]].
  - rewrite Z.max_l by lia. rewrite Z.div_0_l, Z.mod_0_l by lia.
    rewrite Z.div_small, Z.mod_small by lia. cbn [Z.eqb].
    destruct (n =? 0)%Z eqn:E; [apply Z.eqb_eq in E; lia | reflexivity].
  - subst n. rewrite Z.max_l by lia. rewrite Z.div_0_l, Z.mod_0_l by lia.
    rewrite Z_div_same_full, Z_mod_same_full by lia. reflexivity.
  - rewrite Z.max_r by lia. replace (n - c)%Z with (n + (-1) * c)%Z by lia.
    rewrite Z_div_plus, Z_mod_plus by lia. destruct (n mod c =? 0)%Z; lia.
Qed.

Lemma nchunks_ceil n c : (0 <= n -> 1 <= c -> nchunks n c = (n + c - 1) / c)%Z.
Proof.
  intros Hn Hc. unfold nchunks.
  pose proof (Z.div_mod n c ltac:(lia)) as E. pose proof (Z.mod_pos_bound n c ltac:(lia)) as B.
  destruct (n mod c =? 0)%Z eqn:E0.
  - apply Z.eqb_eq in E0. apply Z.div_unique with (c - 1)%Z; lia.
  - apply Z.eqb_neq in E0. apply Z.div_unique with (n mod c - 1)%Z; lia.
Qed.

(* What the loops need of the chunk masks: a chunk carries at least one byte; the data of a full chunk fits under
   the mask (8c <= P); a position is left for padding (P < 64; with the former, c <= 7); every rotated mask is a
   64-bit word of weight P. *)
Definition loop_ok (c : nat) (init : N) (rot : Z) (P : N) : Prop :=
  (1 <= c)%nat /\ 8 * N.of_nat c <= P /\ P < 64 /\
  forall i, rotate_mask init rot i < W64 /\ popcount (rotate_mask init rot i) = P.

Section Loop.
  Variables (c : nat) (init : N) (rot : Z) (P : N).
  Hypothesis Hloop : loop_ok c init rot P.

  Lemma enc_loop_S pb i src f : src <> [] ->
    enc_loop c init rot pb i src (S f) =
    enc_chunk (rotate_mask init rot i) pb (firstn c src) ++ enc_loop c init rot pb (i + 1) (skipn c src) f.
  Proof. destruct src; [contradiction | reflexivity]. Qed.

  Lemma enc_loop_nil pb i f : enc_loop c init rot pb i [] f = [].
  Proof. destruct f; reflexivity. Qed.

  Lemma enc_loop_app pb i bs rest f : (1 <= length bs <= c)%nat -> ((length bs < c)%nat -> rest = []) ->
    enc_loop c init rot pb i (bs ++ rest) (S f) =
    enc_chunk (rotate_mask init rot i) pb bs ++ enc_loop c init rot pb (i + 1) rest f.
  Proof.
    intros Hbs Hlast. rewrite enc_loop_S by (destruct bs; [cbn in Hbs; lia | discriminate]).
    (* the chunk bs is full, or it is the last one *)
    destruct (Nat.eq_dec (length bs) c) as [E|E].
    - rewrite firstn_app_exact, skipn_app_exact by exact E. reflexivity.
    - rewrite Hlast by lia. rewrite app_nil_r, firstn_all2, skipn_all2 by lia. reflexivity.
  Qed.

  Lemma enc_loop_ok pb : forall f i src, bytes_ok (enc_loop c init rot pb i src f).
  Proof.
    induction f as [|f IH]; intros i src; [constructor|].
    destruct src as [|a t]; [constructor|]. cbn [enc_loop]. apply Forall_app. split; [apply enc_chunk_ok | apply IH].
  Qed.

  Lemma dec_loop_S f i pbo rem e : rem <> O ->
    dec_loop c init rot i pbo rem e (S f) =
    match dec_chunk (rotate_mask init rot i) (Nat.min c rem) pbo (firstn chunk_len e) with
    | Err x => Err x
    | Ok (pb, bytes) =>
      match dec_loop c init rot (i + 1) (Some pb) (rem - Nat.min c rem) (skipn chunk_len e) f with
      | Err x => Err x
      | Ok rest => Ok (bytes ++ rest)
      end
    end.
  Proof. destruct rem; [contradiction | reflexivity]. Qed.

  Lemma dec_loop_0 f i pbo e b : dec_loop c init rot i pbo 0 e f = Ok b -> e = [] /\ b = [].
  Proof. destruct f, e; cbn [dec_loop]; intros [= <-] || discriminate; split; reflexivity. Qed.

  Lemma mask_not_ones i : rotate_mask init rot i <> ones64.
  Proof.
    intro E. destruct Hloop as (_ & _ & HP & Hm). destruct (Hm i) as [_ Hp].
    rewrite E, popcount_ones64 in Hp. lia.
  Qed.

  Lemma loop_roundtrip pb : forall fuel src i pbo,
    (length src <= fuel)%nat -> bytes_ok src -> (pbo = None \/ pbo = Some pb) ->
    dec_loop c init rot i pbo (length src) (enc_loop c init rot pb i src fuel) fuel = Ok src.
  Proof.
    destruct Hloop as (Hc1 & HcP & HP & Hm).
    induction fuel as [|f IH]; intros src i pbo Hlen Hok Hpbo.
    - destruct src; [reflexivity | cbn in Hlen; lia].
    - destruct src as [|a t]; [reflexivity|].
      remember (a :: t) as src eqn:Es.
      assert (Hl1 : (1 <= length src)%nat) by (subst src; cbn; lia).
      rewrite enc_loop_S by (subst src; discriminate).
      rewrite dec_loop_S by lia.
      set (g := firstn c src). set (r := skipn c src).
      assert (Hg : length g = Nat.min c (length src)) by apply firstn_length.
      assert (Hr : length r = (length src - c)%nat) by apply skipn_length.
      rewrite firstn_app_exact by apply enc_chunk_length.
      rewrite skipn_app_exact by apply enc_chunk_length.
      rewrite <- Hg.
      destruct (Hm i) as [HMf HMp].
      destruct (bytes_ok_split c src Hok) as [Hgok Hrok].
      rewrite enc_dec_chunk; [ | exact HMf | apply mask_not_ones | exact Hgok | rewrite HMp; lia | lia | exact Hpbo].
      replace (length src - length g)%nat with (length r) by lia.
      rewrite IH; [ | lia | exact Hrok | right; reflexivity].
      unfold g, r. rewrite firstn_skipn. reflexivity.
  Qed.

  Lemma enc_loop_length pb : forall fuel src i, (length src <= fuel)%nat ->
    Z.of_nat (length (enc_loop c init rot pb i src fuel)) =
    (nchunks (Z.of_nat (length src)) (Z.of_nat c) * 8)%Z.
  Proof.
    destruct Hloop as (Hc1 & _).
    induction fuel as [|f IH]; intros src i Hlen.
    - destruct src; [reflexivity | cbn in Hlen; lia].
    - destruct src as [|a t]; [reflexivity|].
      remember (a :: t) as src eqn:Es.
      assert (Hl1 : (1 <= length src)%nat) by (subst src; cbn; lia).
      rewrite enc_loop_S by (subst src; discriminate).
      rewrite app_length, enc_chunk_length, chunk_len_8, Nat2Z.inj_add.
      rewrite IH by (rewrite skipn_length; lia).
      rewrite skipn_length, Nat2Z.inj_sub_max.
      rewrite (nchunks_step (Z.of_nat (length src)) (Z.of_nat c)) by lia. lia.
  Qed.

  Lemma loop_canon_0 f e i pbo b : dec_loop c init rot i pbo 0 e f = Ok b ->
    exists pb, (forall p, pbo = Some p -> pb = p) /\ length b = O /\ bytes_ok b /\
      forall f2, (0 <= f2)%nat -> enc_loop c init rot pb i b f2 = e.
  Proof.
    intro Hdec. apply dec_loop_0 in Hdec. destruct Hdec as [-> ->].
    exists (match pbo with Some p => p | None => false end).
    split; [intros p ->; reflexivity|]. split; [reflexivity|]. split; [constructor|].
    intros f2 _. apply enc_loop_nil.
  Qed.

  Lemma loop_canon : forall fuel e i pbo n b,
    dec_loop c init rot i pbo n e fuel = Ok b -> bytes_ok e ->
    exists pb, (forall p, pbo = Some p -> pb = p) /\ length b = n /\ bytes_ok b /\
      forall f2, (n <= f2)%nat -> enc_loop c init rot pb i b f2 = e.
  Proof.
    destruct Hloop as (Hc1 & HcP & HP & Hm).
    induction fuel as [|f IH]; intros e i pbo n b Hdec Hok.
    { destruct n; [apply (loop_canon_0 _ _ _ _ _ Hdec) | discriminate Hdec]. }
    destruct n as [|n']; [apply (loop_canon_0 _ _ _ _ _ Hdec)|].
    remember (S n') as n eqn:En.
    rewrite dec_loop_S in Hdec by lia.
    destruct (dec_chunk _ _ pbo _) as [[pb bs]|] eqn:Ec; [|discriminate].
    destruct (dec_loop c init rot (i + 1) (Some pb) _ _ f) as [rest|] eqn:Er; [|discriminate].
    inversion Hdec; subst b.
    destruct (bytes_ok_split chunk_len e Hok) as [Hok1 Hok2].
    apply dec_enc_chunk in Ec; [| apply Hm | lia | exact Hok1].
    destruct Ec as (Hp & Hgl & Hbl & Hbok & Henc).
    apply IH in Er; [| exact Hok2].
    destruct Er as (pb2 & Hp2 & Hrl & Hrok & Hrenc).
    assert (pb2 = pb) by (apply Hp2; reflexivity). subst pb2.
    exists pb. split; [exact Hp|]. split; [rewrite app_length; lia|].
    split; [apply Forall_app; split; assumption|].
    intros f2 Hf2. destruct f2 as [|f2]; [lia|].
    rewrite enc_loop_app; [ | lia | intro; apply length_zero_iff_nil; lia].
    rewrite Henc, Hrenc by lia. apply firstn_skipn.
  Qed.
End Loop.

Lemma enc_len_eq n mode c w : mode_params mode = Some (c, w) ->
  enc_len n mode =
  if (n <=? 0)%Z then Err ErrLen else if (nchunks n c >? 8191)%Z then Err ErrTooBig else Ok (nchunks n c * 8)%Z.
Proof. intro Hm. unfold enc_len. rewrite Hm. reflexivity. Qed.

Lemma enc_len_nonpos n mode c w : mode_params mode = Some (c, w) -> (n <= 0)%Z -> enc_len n mode = Err ErrLen.
Proof. intros Hm Hn. rewrite (enc_len_eq _ _ _ _ Hm), (proj2 (Z.leb_le n 0) Hn). reflexivity. Qed.

Lemma enc_len_too_big n mode c w : mode_params mode = Some (c, w) -> (1 <= n)%Z -> (nchunks n c > 8191)%Z ->
  enc_len n mode = Err ErrTooBig.
Proof.
  intros Hm Hn Hc. rewrite (enc_len_eq _ _ _ _ Hm), (proj2 (Z.leb_gt n 0)), (proj2 (Z.gtb_lt _ _)) by lia. reflexivity.
Qed.

Lemma enc_len_ok n mode c w : mode_params mode = Some (c, w) -> (1 <= n)%Z -> (nchunks n c <= 8191)%Z ->
  enc_len n mode = Ok (nchunks n c * 8)%Z.
Proof.
  intros Hm Hn Hc. rewrite (enc_len_eq _ _ _ _ Hm), (proj2 (Z.leb_gt n 0)) by lia.
  destruct (Z.gtb_spec (nchunks n c) 8191); [lia | reflexivity].
Qed.

Lemma enc_len_inv n mode c w x : mode_params mode = Some (c, w) -> enc_len n mode = Ok x ->
  (1 <= n)%Z /\ (nchunks n c <= 8191)%Z /\ x = (nchunks n c * 8)%Z.
Proof.
  intro Hm. rewrite (enc_len_eq _ _ _ _ Hm).
  destruct (Z.leb_spec n 0); [discriminate|]. destruct (Z.gtb_spec (nchunks n c) 8191); [discriminate|].
  intros [= <-]. repeat split; lia.
Qed.

Lemma validate_params_ok mode hm rot c w :
  mode_params mode = Some (c, w) -> Z.of_N (popcount hm) = w -> valid_rotation rot = true ->
  validate_params mode hm rot = Ok (c, w).
Proof. intros Hm Hw Hr. unfold validate_params. rewrite Hm, Hw, Z.eqb_refl, Hr. reflexivity. Qed.

Lemma validate_params_mode mode hm rot : mode_params mode = None -> validate_params mode hm rot = Err ErrMode.
Proof. unfold validate_params. intros ->. reflexivity. Qed.
Lemma validate_params_weight mode hm rot c w :
  mode_params mode = Some (c, w) -> Z.of_N (popcount hm) <> w -> validate_params mode hm rot = Err ErrWeight.
Proof. unfold validate_params. intros -> Hw. apply Z.eqb_neq in Hw. rewrite Hw. reflexivity. Qed.
Lemma validate_params_rotation mode hm rot c w :
  mode_params mode = Some (c, w) -> Z.of_N (popcount hm) = w -> valid_rotation rot = false ->
  validate_params mode hm rot = Err ErrRotation.
Proof. unfold validate_params. intros -> -> ->. rewrite Z.eqb_refl. reflexivity. Qed.

Lemma validate_params_inv mode hm rot p : validate_params mode hm rot = Ok p ->
  exists c w, p = (c, w) /\ mode_params mode = Some (c, w) /\ Z.of_N (popcount hm) = w /\ valid_rotation rot = true.
Proof.
  unfold validate_params. destruct (mode_params mode) as [[c w]|]; [|discriminate].
  destruct (Z.of_N (popcount hm) =? w)%Z eqn:E; [|discriminate]. apply Z.eqb_eq in E.
  destruct (valid_rotation rot) eqn:Er; [|discriminate].
  intro Hx; inversion Hx. exists c, w. repeat split; assumption.
Qed.

Lemma params_err e body n mode hm rot pb x : validate_params mode hm rot = Err x ->
  encode body mode hm rot pb = Err x /\ decode e n mode hm rot = Err x.
Proof. unfold encode, decode. intros ->. split; reflexivity. Qed.

Lemma encode_inv b mode hm rot pb e : encode b mode hm rot pb = Ok e ->
  exists c w, mode_params mode = Some (c, w) /\ Z.of_N (popcount hm) = w /\ valid_rotation rot = true /\ pb <= 1 /\
    (1 <= Z.of_nat (length b))%Z /\ (nchunks (Z.of_nat (length b)) c <= 8191)%Z /\
    e = enc_loop (Z.to_nat c) (repeat32 hm) rot (pb =? 1) 0 b (length b).
Proof.
  unfold encode. destruct (validate_params mode hm rot) as [p|] eqn:Ev; [|discriminate].
  destruct (validate_params_inv _ _ _ _ Ev) as (c & w & -> & Hm & Hw & Hr).
  destruct (N.ltb_spec 1 pb); [discriminate|].
  destruct (enc_len _ mode) as [x|] eqn:El; [|discriminate].
  destruct (enc_len_inv _ _ _ _ _ Hm El) as (Hn & Hnc & _).
  intros [= <-]. exists c, w. repeat split; assumption.
Qed.

Lemma loop_ok_inst mode c w hm rot :
  mode_params mode = Some (c, w) -> hm < 2 ^ 32 -> Z.of_N (popcount hm) = w ->
  loop_ok (Z.to_nat c) (repeat32 hm) rot (popcount (repeat32 hm)).
Proof.
  intros Hm Hh Hw. destruct (mode_params_facts _ _ _ Hm) as [Hc Hw2].
  pose proof (popcount_repeat32 hm Hh) as Hp.
  unfold loop_ok. split; [lia|]. split; [lia|]. split; [lia|].
  intro i. apply rotate_mask_facts, repeat32_lt, Hh.
Qed.

Theorem le_roundtrip body mode hm rot pb c w :
  bytes_ok body -> hm < 2 ^ 32 -> pb <= 1 ->
  mode_params mode = Some (c, w) -> Z.of_N (popcount hm) = w -> valid_rotation rot = true ->
  (1 <= length body)%nat -> (nchunks (Z.of_nat (length body)) c <= 8191)%Z ->
  exists e, encode body mode hm rot pb = Ok e /\
    Z.of_nat (length e) = (8 * nchunks (Z.of_nat (length body)) c)%Z /\
    nchunks (Z.of_nat (length body)) c = ((Z.of_nat (length body) + c - 1) / c)%Z /\
    bytes_ok e /\
    decode e (Z.of_nat (length body)) mode hm rot = Ok body.
Proof.
  intros Hok Hh Hpb Hm Hw Hr Hl Hn.
  destruct (mode_params_facts _ _ _ Hm) as [Hc Hw2].
  pose proof (loop_ok_inst mode c w hm rot Hm Hh Hw) as HL.
  unfold encode. rewrite (validate_params_ok _ _ _ c w) by assumption.
  rewrite (proj2 (N.ltb_ge 1 pb) Hpb), (enc_len_ok _ _ c w) by (try assumption; lia).
  eexists. split; [reflexivity|].
  set (e := enc_loop _ _ _ _ _ _ _).
  assert (Hlen : Z.of_nat (length e) = (nchunks (Z.of_nat (length body)) c * 8)%Z).
  { unfold e. rewrite (enc_loop_length _ _ _ _ HL) by lia. rewrite Z2Nat.id by lia. reflexivity. }
  split; [lia|]. split; [apply nchunks_ceil; lia|].
  split.
  { unfold e. apply enc_loop_ok. }
  unfold decode. rewrite (validate_params_ok _ _ _ c w) by assumption.
  rewrite (enc_len_ok _ _ c w) by (try assumption; lia).
  rewrite Hlen, Z.eqb_refl. cbn [negb]. rewrite Nat2Z.id.
  apply (loop_roundtrip _ _ _ _ HL); [lia | exact Hok | left; reflexivity].
Qed.

Theorem le_canonical e n mode hm rot b :
  bytes_ok e -> hm < 2 ^ 32 ->
  decode e n mode hm rot = Ok b ->
  exists pb, pb <= 1 /\ encode b mode hm rot pb = Ok e /\ Z.of_nat (length b) = n /\ bytes_ok b.
Proof.
  intros Hok Hh. unfold decode.
  destruct (validate_params mode hm rot) as [p|] eqn:Ev; [|discriminate].
  destruct (validate_params_inv _ _ _ _ Ev) as (c & w & -> & Hm & Hw & Hr).
  destruct (enc_len n mode) as [want|] eqn:El; [|discriminate].
  destruct (enc_len_inv _ _ _ _ _ Hm El) as (Hn & Hnc & Hwant).
  destruct (negb (Z.of_nat (length e) =? want)%Z); [discriminate|].
  pose proof (loop_ok_inst mode c w hm rot Hm Hh Hw) as HL.
  intro Hd. apply (loop_canon _ _ _ _ HL) in Hd; [| exact Hok].
  destruct Hd as (pb & _ & Hlen & Hbok & Henc).
  exists (if pb then 1 else 0). split; [destruct pb; lia|].
  assert (Hlb : Z.of_nat (length b) = n) by lia.
  split; [| split; assumption].
  unfold encode. rewrite Ev.
  replace (1 <? (if pb then 1 else 0)) with false by (destruct pb; reflexivity).
  rewrite Hlb, El. f_equal.
  replace ((if pb then 1 else 0) =? 1) with pb by (destruct pb; reflexivity).
  apply Henc. lia.
Qed.

Theorem le_rejects e body n mode hm rot pb :
  (mode_params mode = None ->
     encode body mode hm rot pb = Err ErrMode /\ decode e n mode hm rot = Err ErrMode) /\
  (forall c w, mode_params mode = Some (c, w) -> Z.of_N (popcount hm) <> w ->
     encode body mode hm rot pb = Err ErrWeight /\ decode e n mode hm rot = Err ErrWeight) /\
  (forall c w, mode_params mode = Some (c, w) -> Z.of_N (popcount hm) = w -> valid_rotation rot = false ->
     encode body mode hm rot pb = Err ErrRotation /\ decode e n mode hm rot = Err ErrRotation) /\
  (forall c w, mode_params mode = Some (c, w) -> Z.of_N (popcount hm) = w -> valid_rotation rot = true ->
     (1 < pb -> encode body mode hm rot pb = Err ErrPadBit) /\
     (pb <= 1 -> body = [] -> encode body mode hm rot pb = Err ErrLen) /\
     (pb <= 1 -> (nchunks (Z.of_nat (length body)) c > 8191)%Z -> encode body mode hm rot pb = Err ErrTooBig) /\
     ((n <= 0)%Z -> decode e n mode hm rot = Err ErrLen) /\
     ((1 <= n)%Z -> (nchunks n c > 8191)%Z -> decode e n mode hm rot = Err ErrTooBig) /\
     ((1 <= n)%Z -> (nchunks n c <= 8191)%Z -> Z.of_nat (length e) <> (8 * nchunks n c)%Z ->
        decode e n mode hm rot = Err ErrEncLen)).
Proof.
  split; [intro Hm; apply params_err, validate_params_mode, Hm|].
  split; [intros c w Hm Hw; apply params_err, (validate_params_weight _ _ _ c w Hm Hw)|].
  split; [intros c w Hm Hw Hr; apply params_err, (validate_params_rotation _ _ _ c w Hm Hw Hr)|].
  intros c w Hm Hw Hr. unfold encode, decode. rewrite (validate_params_ok _ _ _ c w) by assumption.
  split; [intro H; apply N.ltb_lt in H; rewrite H; reflexivity|].
  split.
  { intros H ->. rewrite (proj2 (N.ltb_ge 1 pb) H), (enc_len_nonpos _ _ c w) by (assumption || reflexivity).
    reflexivity. }
  split.
  { intros H Hn. rewrite (proj2 (N.ltb_ge 1 pb) H).
    (* an empty body has no chunk *)
    assert (1 <= Z.of_nat (length body))%Z by (destruct body; [cbn in Hn | cbn [length]]; lia).
    rewrite (enc_len_too_big _ _ c w) by assumption. reflexivity. }
  split; [intro H; rewrite (enc_len_nonpos _ _ c w) by assumption; reflexivity|].
  split; [intros H Hn; rewrite (enc_len_too_big _ _ c w) by assumption; reflexivity|].
  intros H Hn Hl. rewrite (enc_len_ok _ _ c w), (proj2 (Z.eqb_neq _ _)) by (assumption || lia). reflexivity.
Qed.

Theorem meta_ties_lengths proto mode hm epl pl rot :
  validate_meta proto mode hm epl pl rot = Ok tt <->
  is_le_proto proto = true /\ (epl <= C17_maxPDU)%Z /\
  exists c w, mode_params mode = Some (c, w) /\ Z.of_N (popcount hm) = w /\ valid_rotation rot = true /\
    ((epl = 0 /\ pl = 0)%Z \/
     (1 <= epl /\ nchunks epl c <= 8191 /\ pl = 8 * nchunks epl c)%Z).
Proof.
  unfold validate_meta. split.
  - destruct (is_le_proto proto); cbn [negb]; [|discriminate].
    pose proof (Z.gtb_spec epl C17_maxPDU) as S. destruct S; [discriminate|].
    destruct (pl mod C17_lowEntropyChunkLen =? 0)%Z; cbn [negb]; [|discriminate].
    destruct (validate_params mode hm rot) as [p|] eqn:Ev; [|discriminate].
    destruct (validate_params_inv _ _ _ _ Ev) as (c & w & -> & Hm & Hw & Hr).
    intro Hv. split; [reflexivity|]. split; [lia|]. exists c, w. repeat split; try assumption.
    destruct (Z.eqb_spec epl 0) as [E0|E0].
    + destruct (Z.eqb_spec pl 0) as [E1|E1]; [left; split; assumption | discriminate].
    + destruct (enc_len epl mode) as [want|] eqn:El; [|discriminate].
      destruct (enc_len_inv _ _ _ _ _ Hm El) as (Hn & Hnc & Hwant).
      destruct (Z.eqb_spec pl want) as [E1|E1]; [right; lia | discriminate].
  - intros (Hp & Hepl & c & w & Hm & Hw & Hr & Hcase). rewrite Hp. cbn [negb].
    pose proof (Z.gtb_spec epl C17_maxPDU) as S. destruct S; [lia|].
    rewrite (validate_params_ok _ _ _ c w) by assumption.
    change C17_lowEntropyChunkLen with 8%Z.
    destruct Hcase as [[-> ->] | (Hn & Hnc & ->)].
    + reflexivity.
    + rewrite (Z.mul_comm 8), Z.mod_mul by discriminate.
      cbn [Z.eqb negb].
      destruct (Z.eqb_spec epl 0); [lia|].
      rewrite (enc_len_ok _ _ c w), Z.eqb_refl by assumption. reflexivity.
Qed.

Lemma doc_vector :
  encode doc_body 1 doc_hm 0 0 = Ok [1;2;3;4;5;6;7;8] /\
  encode doc_body 1 doc_hm 0 1 = Ok [241;242;243;244;245;246;247;248].
Proof. split; vm_compute; reflexivity. Qed.

(* an input meeting the hypotheses of le_roundtrip, and what the codec does on it *)
Example ex_roundtrip_hyps :
  let body := [1; 2; 3; 4; 5; 6; 7; 8; 9; 250; 251]%N in
  bytes_ok body /\ 1048575 < 2 ^ 32 /\ mode_params 2 = Some (5, 20)%Z /\
  Z.of_N (popcount 1048575) = 20%Z /\ valid_rotation 240 = true /\
  (nchunks (Z.of_nat (length body)) 5 <= 8191)%Z.
Proof.
  cbv zeta. split; [repeat constructor|]. split; [reflexivity|]. split; [reflexivity|].
  split; [reflexivity|]. split; [reflexivity|]. vm_compute. congruence.
Qed.
Example ex_roundtrip_run :
  encode [1; 2; 3; 4; 5; 6; 7; 8; 9; 250; 251]%N 2 1048575 240 1 =
    Ok [255; 240; 16; 32; 255; 243; 4; 5; 6; 7; 127; 248; 128; 159; 255; 250; 255; 255; 255; 255; 255; 255; 255; 251]%N /\
  decode [255; 240; 16; 32; 255; 243; 4; 5; 6; 7; 127; 248; 128; 159; 255; 250; 255; 255; 255; 255; 255; 255; 255; 251]%N
    11 2 1048575 240 = Ok [1; 2; 3; 4; 5; 6; 7; 8; 9; 250; 251]%N.
Proof. split; vm_compute; reflexivity. Qed.

Example ex_rejections :
  decode [241;242;243;244;245;246;247;240]%N 4 1 doc_hm 0 = Ok [18;52;86;112]%N /\
  decode [241;242;243;244;245;246;231;248]%N 4 1 doc_hm 0 = Err ErrMixed /\
  decode ([241;242;243;244;245;246;247;248] ++ [1;2;3;4;5;6;7;8])%N 8 1 doc_hm 0 = Err ErrNonUniform /\
  decode ([241;242;243;244;245;246;247;248] ++ [255;255;255;255;245;246;247;248])%N 6 1 doc_hm 0 = Ok [18;52;86;120;86;120]%N /\
  decode ([241;242;243;244;245;246;247;248] ++ [255;255;255;239;245;246;247;248])%N 6 1 doc_hm 0 = Err ErrNonUniform /\
  decode [1;2;3;4;5;6;7;8]%N 5 1 doc_hm 0 = Err ErrEncLen /\
  validate_meta 10 1 doc_hm 4 8 0 = Ok tt /\ validate_meta 10 1 doc_hm 4 16 0 = Err ErrPayloadLen /\
  validate_meta 11 4 268435455 32768 37456 240 = Ok tt /\ validate_meta 10 1 doc_hm 32768 65536 0 = Err ErrTooBig.
Proof. repeat split; vm_compute; reflexivity. Qed.
