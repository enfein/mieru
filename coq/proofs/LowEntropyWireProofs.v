(* Cross-model agreement (C17 x C09): the low-entropy metadata validation of model/Wire.v (le_meta_ok, used by
   Wire.unmarshal_data for protocol types 10 / 11; N-valued fields, constants prefixed C09) accepts exactly the field
   combinations that model/LowEntropy.v's validate_meta (Z-valued, constants prefixed C17) accepts. *)
From Coq Require Import NArith ZArith List Bool Lia.
From M Require Import gen.Consts base.Bits64 model.LowEntropy proofs.LowEntropyProofs.
From M Require model.Wire.
Open Scope N_scope.

Lemma wire_popcount n : Wire.popcount n = popcount n.
Proof.
  destruct n as [|p]; [reflexivity|]. cbn [Wire.popcount popcount].
  induction p as [p IH|p IH|]; cbn [Wire.pop_pos popP]; rewrite ?IH; reflexivity.
Qed.

Lemma wire_proto p : Wire.is_low_entropy p = is_le_proto (Z.of_N p).
Proof.
  unfold Wire.is_low_entropy, is_le_proto.
  change Wire.T_dataClientToServerLE with 10. change Wire.T_dataServerToClientLE with 11.
  change C17_protoLowEntropyC2S with 10%Z. change C17_protoLowEntropyS2C with 11%Z.
  destruct (N.eqb_spec p 10), (N.eqb_spec p 11), (Z.eqb_spec (Z.of_N p) 10), (Z.eqb_spec (Z.of_N p) 11);
    try reflexivity; lia.
Qed.

Lemma wire_rotation r : Wire.valid_rotation r = valid_rotation (Z.of_N r).
Proof.
  apply Bool.eq_true_iff_eq. unfold Wire.valid_rotation, valid_rotation.
  change (Z.to_N C09_RotNone) with 0. change (Z.to_N C09_RotRight1) with 1. change (Z.to_N C09_RotRight15) with 15.
  change (Z.to_N C09_RotLeft1) with 16. change (Z.to_N C09_RotLeft15) with 240.
  change C17_rotNone with 0%Z. change C17_rotRight1 with 1%Z. change C17_rotRight15 with 15%Z.
  change C17_rotLeft1 with 16%Z. change C17_rotLeft15 with 240%Z.
  rewrite !orb_true_iff, !andb_true_iff, !N.eqb_eq, !N.leb_le, !Z.eqb_eq, !Z.leb_le.
  rewrite <- (N2Z.inj_iff (r mod 16) 0), N2Z.inj_mod. change (Z.of_N 16) with 16%Z. change (Z.of_N 0) with 0%Z.
  lia.
Qed.

Lemma wire_mode mode :
  mode_params (Z.of_N mode) =
  if Wire.mode_source_bytes mode =? 0 then None
  else Some (Z.of_N (Wire.mode_source_bytes mode), Z.of_N (Wire.mode_mask_ones mode)).
Proof.
  assert (H : mode = 0 \/ mode = 1 \/ mode = 2 \/ mode = 3 \/ mode = 4 \/ mode = 5 \/ mode = 6 \/ mode = 7 \/ 8 <= mode) by lia.
  repeat (destruct H as [H|H]; [subst mode; vm_compute; reflexivity|]).
  unfold mode_params, Wire.mode_source_bytes.
  replace ((0 <=? Z.of_N mode)%Z && (Z.of_N mode <? 8)%Z) with false
    by (symmetry; apply andb_false_iff; right; apply Z.ltb_ge; lia).
  rewrite nth_overflow by (change (length C09_modeSourceBytes) with 8%nat; lia).
  reflexivity.
Qed.

Lemma nchunks_of_N n c : c <> 0 -> nchunks (Z.of_N n) (Z.of_N c) = Z.of_N ((n + c - 1) / c).
Proof. intro. rewrite nchunks_ceil, N2Z.inj_div, N2Z.inj_sub, N2Z.inj_add by lia. reflexivity. Qed.

(* the last conjunct of Wire.le_meta_ok is the length alternative of meta_ties_lengths *)
Lemma wire_len_ok mode elen plen : Wire.mode_source_bytes mode <> 0 ->
  (if elen =? 0 then plen =? 0
   else match Wire.le_encoded_len elen mode with Some l => plen =? l | None => false end) = true <->
  ((Z.of_N elen = 0 /\ Z.of_N plen = 0) \/
   (1 <= Z.of_N elen /\ nchunks (Z.of_N elen) (Z.of_N (Wire.mode_source_bytes mode)) <= 8191 /\
    Z.of_N plen = 8 * nchunks (Z.of_N elen) (Z.of_N (Wire.mode_source_bytes mode))))%Z.
Proof.
  intro Hsb. unfold Wire.le_encoded_len. change Wire.chunkLen with 8. change (65535 / 8) with 8191.
  rewrite (nchunks_of_N _ _ Hsb).
  set (ch := (elen + Wire.mode_source_bytes mode - 1) / Wire.mode_source_bytes mode). clearbody ch.
  destruct (N.eqb_spec elen 0) as [E0|E0].
  - rewrite N.eqb_eq. lia.
  - destruct (N.ltb_spec 8191 ch) as [Hc|Hc].
    + split; [discriminate | lia].
    + rewrite N.eqb_eq. lia.
Qed.

Theorem meta_agrees_with_wire p mode mask elen plen rot :
  Wire.is_low_entropy p && Wire.le_meta_ok mode mask elen plen rot = true <->
  validate_meta (Z.of_N p) (Z.of_N mode) mask (Z.of_N elen) (Z.of_N plen) (Z.of_N rot) = Ok tt.
Proof.
  rewrite meta_ties_lengths, andb_true_iff, wire_proto.
  apply and_iff_compat_l.
  unfold Wire.le_meta_ok, Wire.le_params_ok.
  change Wire.maxPDU with 32768. change Wire.chunkLen with 8. change C17_maxPDU with 32768%Z.
  rewrite wire_popcount, wire_rotation, (wire_mode mode).
  destruct (N.eqb_spec (Wire.mode_source_bytes mode) 0) as [E|E].
  - (* no such mode: neither side holds *)
    cbn [negb andb]. rewrite !andb_true_iff.
    split; [intros [[_ H] _]; discriminate H | intros (_ & c & w & H & _); discriminate H].
  - cbn [negb andb]. rewrite !andb_true_iff, (wire_len_ok _ _ _ E), N.leb_le, !N.eqb_eq.
    split.
    + intros [[[Hle Hmod] [Hpop Hrot]] Hcase]. split; [lia|]. do 2 eexists.
      split; [reflexivity|]. split; [rewrite Hpop; reflexivity|]. split; assumption.
    + intros (Hle & c & w & [= <- <-] & Hw & Hrot & Hcase).
      split; [split; [split; [lia|] | split; [lia | exact Hrot]] | exact Hcase].
      (* the payload length is a multiple of 8 in both alternatives *)
      apply N2Z.inj. rewrite N2Z.inj_mod.
      destruct Hcase as [[_ ->]|(_ & _ & ->)]; [reflexivity|].
      rewrite (Z.mul_comm 8). apply Z.mod_mul. discriminate.
Qed.
