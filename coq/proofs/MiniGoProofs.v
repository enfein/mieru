(* Bridge lemmas between the Z-valued operations of base/MiniGo.v (what harness/cmd/go2coq emits) and the N / Z
   arithmetic the hand-written models use. *)
From Coq Require Import ZArith NArith Bool List Lia ZifyN ZifyBool.
From M Require Import base.MiniGo.
(* gives [lia] division and remainder by constants *)
Local Ltac Zify.zify_post_hook ::= Z.div_mod_to_equations.
Local Open Scope Z_scope.

(* signed 64-bit: no wrap inside the range *)

Lemma in_I64 z : - 2 ^ 63 <= z < 2 ^ 63 -> go_wrap (I 64) z = z.
Proof. intro H. apply wrapS_id; [lia | exact H]. Qed.

Lemma go_add_I64 a b : - 2 ^ 63 <= a + b < 2 ^ 63 -> go_add (I 64) a b = a + b.
Proof. apply in_I64. Qed.
Lemma go_sub_I64 a b : - 2 ^ 63 <= a - b < 2 ^ 63 -> go_sub (I 64) a b = a - b.
Proof. apply in_I64. Qed.
Lemma go_mul_I64 a b : - 2 ^ 63 <= a * b < 2 ^ 63 -> go_mul (I 64) a b = a * b.
Proof. apply in_I64. Qed.
Lemma go_neg_I64 a : - 2 ^ 63 < a < 2 ^ 63 -> go_neg (I 64) a = - a.
Proof. intro H. apply in_I64. lia. Qed.
Lemma go_cast_I64 a : - 2 ^ 63 <= a < 2 ^ 63 -> go_cast (I 64) a = a.
Proof. apply in_I64. Qed.
Lemma quot_bounds a b : 0 < b -> (0 <= a -> 0 <= Z.quot a b <= a) /\ (a <= 0 -> a <= Z.quot a b <= 0).
Proof.
  intro Hb. split; intro Ha.
  - pose proof (Z.mul_quot_le a b Ha ltac:(lia)). nia.
  - pose proof (Z.mul_quot_ge a b Ha ltac:(lia)). nia.
Qed.
Lemma rem_bounds a b : 0 < b -> (0 <= a -> 0 <= Z.rem a b <= a) /\ (a <= 0 -> a <= Z.rem a b <= 0).
Proof.
  intro Hb. pose proof (Z.quot_rem' a b) as E. split; intro Ha.
  - pose proof (Z.mul_quot_le a b Ha ltac:(lia)). lia.
  - pose proof (Z.mul_quot_ge a b Ha ltac:(lia)). lia.
Qed.
Lemma go_quo_I64 a b : - 2 ^ 63 <= a < 2 ^ 63 -> 0 < b -> go_quo (I 64) a b = Z.quot a b.
Proof. intros Ha Hb. apply in_I64. destruct (quot_bounds a b Hb). lia. Qed.
Lemma go_rem_I64 a b : - 2 ^ 63 <= a < 2 ^ 63 -> 0 < b -> go_rem (I 64) a b = Z.rem a b.
Proof. intros Ha Hb. apply in_I64. destruct (rem_bounds a b Hb). lia. Qed.

(* (not in the standard library of 8.16) *)
Lemma of_N_land a b : Z.of_N (N.land a b) = Z.land (Z.of_N a) (Z.of_N b).
Proof. destruct a, b; reflexivity. Qed.
Lemma of_N_lor a b : Z.of_N (N.lor a b) = Z.lor (Z.of_N a) (Z.of_N b).
Proof. destruct a, b; reflexivity. Qed.
Lemma of_N_lxor a b : Z.of_N (N.lxor a b) = Z.lxor (Z.of_N a) (Z.of_N b).
Proof. destruct a, b; reflexivity. Qed.

Lemma of_N_pow2 k : Z.of_N (2 ^ k) = 2 ^ Z.of_N k.
Proof. rewrite N2Z.inj_pow. reflexivity. Qed.

Lemma wrapU64_of_N a : wrapU 64 (Z.of_N a) = Z.of_N (a mod 2 ^ 64).
Proof. unfold wrapU. rewrite N2Z.inj_mod. reflexivity. Qed.

Lemma wrapU64_small a : (a < 2 ^ 64)%N -> wrapU 64 (Z.of_N a) = Z.of_N a.
Proof. intro H. apply wrapU_id. lia. Qed.

Lemma go_neg_U64_of_N a : go_neg (U 64) (Z.of_N a) = Z.of_N ((2 ^ 64 - a mod 2 ^ 64) mod 2 ^ 64).
Proof.
  unfold go_neg, go_wrap, wrapU. rewrite N2Z.inj_mod, N2Z.inj_sub, N2Z.inj_mod.
  - change (Z.of_N (2 ^ 64)) with (2 ^ 64). set (P := 2 ^ 64). assert (0 < P) by (subst P; lia).
    generalize (Z.of_N a) (N2Z.is_nonneg a). intros z Hz. lia.
  - assert (a mod 2 ^ 64 < 2 ^ 64)%N by (apply N.mod_lt; discriminate). lia.
Qed.

Lemma go_add_U_of_N k a b : go_add (U (Z.of_N k)) (Z.of_N a) (Z.of_N b) = Z.of_N ((a + b) mod 2 ^ k).
Proof. unfold go_add, go_wrap, wrapU. rewrite N2Z.inj_mod, N2Z.inj_add, of_N_pow2. reflexivity. Qed.

Lemma go_add_U64_of_N a b : go_add (U 64) (Z.of_N a) (Z.of_N b) = Z.of_N ((a + b) mod 2 ^ 64).
Proof. apply (go_add_U_of_N 64). Qed.

Lemma go_mul_U64_of_N a b : go_mul (U 64) (Z.of_N a) (Z.of_N b) = Z.of_N ((a * b) mod 2 ^ 64).
Proof. unfold go_mul, go_wrap. rewrite <- N2Z.inj_mul. apply wrapU64_of_N. Qed.

Lemma go_sub_U64_of_N a b : (b <= a)%N -> (a < 2 ^ 64)%N -> go_sub (U 64) (Z.of_N a) (Z.of_N b) = Z.of_N (a - b).
Proof.
  intros Hb Ha. unfold go_sub, go_wrap. rewrite <- N2Z.inj_sub by exact Hb. apply wrapU64_small. lia.
Qed.

Lemma go_sub_U64_pred a : a <> 0%N -> (a < 2 ^ 64)%N -> go_sub (U 64) (Z.of_N a) 1 = Z.of_N (a - 1).
Proof. intros H0 Ha. change 1 with (Z.of_N 1). apply go_sub_U64_of_N; lia. Qed.

Lemma go_shl_U64_of_N a s : (s < 64)%N -> go_shl (U 64) (Z.of_N a) (Z.of_N s) = Z.of_N ((a * 2 ^ s) mod 2 ^ 64).
Proof.
  intro Hs. unfold go_shl, go_bits, go_wrap.
  destruct (64 <=? Z.of_N s) eqn:E; [apply Z.leb_le in E; lia|].
  rewrite <- of_N_pow2, <- N2Z.inj_mul. apply wrapU64_of_N.
Qed.

Lemma go_shl_U64_1 a : go_shl (U 64) (Z.of_N a) 1 = Z.of_N ((a * 2) mod 2 ^ 64).
Proof. change 1 with (Z.of_N 1). rewrite go_shl_U64_of_N by reflexivity. reflexivity. Qed.

Lemma go_shr_U_of_N t a s : go_shr t (Z.of_N a) (Z.of_N s) = Z.of_N (N.shiftr a s).
Proof.
  unfold go_shr. rewrite Z.shiftr_div_pow2 by lia. rewrite N.shiftr_div_pow2, N2Z.inj_div, N2Z.inj_pow. reflexivity.
Qed.

Lemma go_cast_U64_of_N a : (a < 2 ^ 64)%N -> go_cast (U 64) (Z.of_N a) = Z.of_N a.
Proof. apply wrapU64_small. Qed.

Lemma eqb_of_N a b : (Z.of_N a =? Z.of_N b) = (a =? b)%N.
Proof. destruct (N.eqb_spec a b) as [->|H]; [apply Z.eqb_refl | apply Z.eqb_neq; lia]. Qed.
(* a literal of the translation is not of the form [Z.of_N _]: hence the variants at a constant of this and other lemmas *)
Lemma eqb_of_N_const p c : 0 <= c -> (Z.of_N p =? c) = (p =? Z.to_N c)%N.
Proof. intro Hc. rewrite <- (Z2N.id c) at 1 by exact Hc. apply eqb_of_N. Qed.
Lemma eqb_of_N_0 a : (Z.of_N a =? 0) = (a =? 0)%N.
Proof. apply (eqb_of_N a 0). Qed.
Lemma ltb_of_N a b : (Z.of_N a <? Z.of_N b) = (a <? b)%N.
Proof. destruct (N.ltb_spec a b); [apply Z.ltb_lt | apply Z.ltb_ge]; lia. Qed.
Lemma leb_of_N a b : (Z.of_N a <=? Z.of_N b) = (a <=? b)%N.
Proof. destruct (N.leb_spec a b); [apply Z.leb_le | apply Z.leb_gt]; lia. Qed.

Lemma if_negb {T} (c : bool) (x y : T) : (if negb c then x else y) = if c then y else x.
Proof. destruct c; reflexivity. Qed.
Lemma if_of_N (c : bool) a b : (if c then Z.of_N a else Z.of_N b) = Z.of_N (if c then a else b).
Proof. destruct c; reflexivity. Qed.

(* disjoint halves: [|] is [+] *)
Lemma lor_shifted_N a b k : (b < 2 ^ k)%N -> N.lor (a * 2 ^ k) b = (a * 2 ^ k + b)%N.
Proof.
  intro Hb. rewrite <- N.shiftl_mul_pow2.
  assert (D : N.land (N.shiftl a k) b = 0%N).
  { apply N.bits_inj; intro i. rewrite N.land_spec, N.bits_0.
    destruct (N.lt_ge_cases i k) as [Hi|Hi].
    - rewrite N.shiftl_spec_low by exact Hi. reflexivity.
    - destruct (N.eq_dec b 0) as [->|Hnz]; [rewrite N.bits_0; apply andb_false_r|].
      rewrite (N.bits_above_log2 b i), andb_false_r; [reflexivity|].
      apply N.log2_lt_pow2 in Hb; lia. }
  rewrite <- N.lxor_lor by exact D. symmetry. apply N.add_nocarry_lxor. exact D.
Qed.

(* []byte: a list of N on the model's side, its image under Z.of_N in the translation *)

Lemma go_len_of_N b : go_len (map Z.of_N b) = Z.of_nat (length b).
Proof. unfold go_len. rewrite map_length. reflexivity. Qed.

