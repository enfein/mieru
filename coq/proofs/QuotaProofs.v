(* checkQuota (model/Quota.v): when the window arithmetic does not wrap, what the loop decides, and that the decision
   for a user reads that user's policy and counters only *)
From Coq Require Import ZArith List Bool Lia.
From M Require Import gen.Consts model.Counter model.Quota proofs.CounterProofs.
Import ListNotations.
Open Scope Z_scope.

Lemma wrap64_small z : - 2 ^ 63 <= z < 2 ^ 63 -> wrap64 z = z.
Proof. intros H. unfold wrap64. rewrite Z.mod_small; lia. Qed.

(* up to max_days none of the three int64 operations wraps *)
Lemma window_ns_ok d : 0 < d <= max_days ->
  window_ns d = - (d * (C19_QuotaHoursPerDay * C19_HourNs)) /\ window_ns d <= 0.
Proof.
  intros H. assert (E : max_days = 106751) by reflexivity.   (* (2^63 - 1) / (24 h in ns), rounded down *)
  unfold window_ns, C19_QuotaHoursPerDay, C19_HourNs.
  rewrite (wrap64_small (- d)), (wrap64_small (- d * _)), wrap64_small; lia.
Qed.

Lemma check_quotas_step q r up down now : days_ok q ->
  check_quotas (q :: r) up down now =
  if Z.quot (window_total q up down now) C19_QuotaBytesPerMegabyte >? q_mb q then QRefuse else check_quotas r up down now.
Proof.
  intros H. destruct (window_ns_ok _ H) as [E Hle]. cbn [check_quotas].
  destruct (Z.ltb_spec now (now + window_ns (q_days q))) as [Hlt|_]; [lia|].
  unfold window_total. rewrite E, Z.add_opp_r. reflexivity.
Qed.

Lemma check_quotas_spec : forall qs up down now, Forall days_ok qs ->
  (check_quotas qs up down now = QRefuse <-> exists q, In q qs /\ exceeded q up down now) /\
  (check_quotas qs up down now = QRefuse \/ check_quotas qs up down now = QAllow).
Proof.
  induction qs as [|q r IH]; intros up down now H.
  - cbn. split; [|now right]. split; [discriminate | intros (q & [] & _)].
  - inversion H as [|? ? Hq Hr]; subst. rewrite check_quotas_step by exact Hq.
    destruct (IH up down now Hr) as [IH1 IH2]. unfold exceeded at 1.
    destruct (Z.gtb_spec (Z.quot (window_total q up down now) C19_QuotaBytesPerMegabyte) (q_mb q)) as [Hgt|Hle].
    + split; [|now left]. split; [|reflexivity]. intros _. exists q. split; [now left|]. lia.
    + split; [|exact IH2]. rewrite IH1. split.
      * intros (q' & Hin & He). exists q'. split; [now right | exact He].
      * intros (q' & [->|Hin] & He); [unfold exceeded in He; lia | exists q'; split; assumption].
Qed.

Lemma name_eqb_eq a : forall b, name_eqb a b = true <-> a = b.
Proof.
  induction a as [|x a IH]; intros [|y b]; cbn.
  - split; reflexivity.
  - split; discriminate.
  - split; discriminate.
  - rewrite andb_true_iff, N.eqb_eq, IH. split; [intros [-> ->]; reflexivity | intros [= -> ->]; split; reflexivity].
Qed.

Lemma name_eqb_refl a : name_eqb a a = true.
Proof. now apply name_eqb_eq. Qed.

Lemma check_quota_own p u m up down now : p_name p = u -> lookup u m = Some (up, down) ->
  check_quota (Some p) u m now = check_quotas (p_quotas p) up down now.
Proof.
  intros <- El. unfold check_quota. rewrite name_eqb_refl, El. now destruct (p_quotas p).
Qed.

Lemma check_quota_inv pol u m now :
  check_quota pol u m now = QAllowErr \/ check_quota pol u m now = QAllow \/
  exists p up down, pol = Some p /\ p_name p = u /\ lookup u m = Some (up, down) /\
                    check_quota pol u m now = check_quotas (p_quotas p) up down now.
Proof.
  destruct pol as [p|]; [|now left].
  destruct (name_eqb (p_name p) u) eqn:En.
  - apply name_eqb_eq in En. destruct (lookup u m) as [[up down]|] eqn:El.
    + right; right. exists p, up, down. now rewrite (check_quota_own p u m up down now En El).
    + unfold check_quota. rewrite En, name_eqb_refl, El. destruct (p_quotas p); [right|]; now left.
  - unfold check_quota. rewrite En. now left.
Qed.

Lemma refused_true r : refused r = true <-> r = QRefuse.
Proof. now destruct r. Qed.

Lemma refuse_iff_own p u m now : Forall days_ok (p_quotas p) ->
  (refused (check_quota (Some p) u m now) = true <->
   p_name p = u /\ exists up down q, lookup u m = Some (up, down) /\ In q (p_quotas p) /\ exceeded q up down now).
Proof.
  intros Hd. split.
  - intros Hr. destruct (check_quota_inv (Some p) u m now) as [E|[E|(p' & up & down & [= <-] & En & El & E)]];
      rewrite E in Hr; [discriminate ..|].
    apply refused_true, (check_quotas_spec _ up down now Hd) in Hr. destruct Hr as (q & Hin & He).
    split; [exact En|]. exists up, down, q. exact (conj El (conj Hin He)).
  - intros (En & up & down & q & El & Hin & He). rewrite (check_quota_own p u m up down now En El).
    apply refused_true, (check_quotas_spec _ up down now Hd). exists q. exact (conj Hin He).
Qed.

Theorem quota_refuse_iff : forall pol u m now,
  (forall p, pol = Some p -> Forall days_ok (p_quotas p)) ->
  (refused (check_quota pol u m now) = true <->
   exists p up down q, pol = Some p /\ p_name p = u /\ lookup u m = Some (up, down) /\
                       In q (p_quotas p) /\ exceeded q up down now).
Proof.
  intros pol u m now Hd. destruct pol as [p|].
  - rewrite (refuse_iff_own p u m now (Hd p eq_refl)). split.
    + intros (En & up & down & q & H). exists p, up, down, q. exact (conj eq_refl (conj En H)).
    + intros (p' & up & down & q & [= <-] & En & H). split; [exact En|]. exists up, down, q. exact H.
  - split; [discriminate | now intros (p & _ & _ & _ & [=] & _)].
Qed.

Lemma quot_gt_iff T M mb : 0 < M -> 0 <= mb -> (Z.quot T M > mb <-> (mb + 1) * M <= T).
Proof.
  intros HM Hmb. split.
  - intros H. destruct (Z_lt_le_dec T ((mb + 1) * M)) as [Hlt|]; [exfalso | assumption].
    destruct (Z_lt_le_dec T 0) as [Hn|Hp].
    + pose proof (Z.quot_le_mono T 0 M HM ltac:(lia)) as Hq. rewrite Z.quot_0_l in Hq; lia.
    + pose proof (Z.quot_lt_upper_bound T M (mb + 1) Hp HM ltac:(lia)). lia.
  - intros H. pose proof (Z.quot_le_lower_bound T M (mb + 1) HM ltac:(lia)). lia.
Qed.

Lemma exceeded_bytes q up down now : 0 <= q_mb q ->
  (exceeded q up down now <-> (q_mb q + 1) * C19_QuotaBytesPerMegabyte <= window_total q up down now).
Proof. intros Hmb. now apply quot_gt_iff. Qed.

Theorem within_allowance_never_refused : forall p u m up down now,
  Forall days_ok (p_quotas p) -> lookup u m = Some (up, down) -> nonneg up -> nonneg down ->
  (forall q, In q (p_quotas p) -> 0 <= q_mb q /\ hsum up + hsum down < (q_mb q + 1) * C19_QuotaBytesPerMegabyte) ->
  refused (check_quota (Some p) u m now) = false.
Proof.
  intros p u m up down now Hd El Hu Hdn Hq.
  destruct (refused (check_quota (Some p) u m now)) eqn:E; [|reflexivity]. exfalso.
  apply (refuse_iff_own p u m now Hd) in E. destruct E as (_ & up' & down' & q & El' & Hin & He).
  rewrite El in El'. injection El' as <- <-.
  destruct (Hq q Hin) as [Hmb Hlt]. apply exceeded_bytes in He; [|exact Hmb].
  unfold window_total in He.
  pose proof (window_le_total up (now - q_days q * (C19_QuotaHoursPerDay * C19_HourNs)) now Hu).
  pose proof (window_le_total down (now - q_days q * (C19_QuotaHoursPerDay * C19_HourNs)) now Hdn).
  lia.
Qed.

Lemma quota_isolation pol u m m' now :
  lookup u m = lookup u m' -> check_quota pol u m now = check_quota pol u m' now.
Proof. intros E. unfold check_quota. now rewrite E. Qed.

Lemma lookup_other v x u m : name_eqb v u = false -> lookup u ((v, x) :: m) = lookup u m.
Proof. intros E. cbn [lookup]. now rewrite E. Qed.

(* no assumption on the days: the loop is not reached, or is empty *)
Lemma never_refused_without_own_quota pol u m now :
  (pol = None \/ (exists p, pol = Some p /\ (p_quotas p = [] \/ p_name p <> u)) \/ lookup u m = None) ->
  refused (check_quota pol u m now) = false.
Proof.
  intros H. destruct (check_quota_inv pol u m now) as [E|[E|(p & up & down & -> & En & El & E)]];
    rewrite E; [reflexivity ..|].
  destruct H as [[=]|[(p' & [= <-] & [Eq|Hne])|H]].
  - now rewrite Eq.
  - contradiction.
  - congruence.
Qed.

Lemma quota_whole_mib_slack :
  exists q up down now, days_ok q /\ window_total q up down now = q_mb q * C19_QuotaBytesPerMegabyte + (C19_QuotaBytesPerMegabyte - 1) /\
                        check_quotas [q] up down now = QAllow.
Proof.
  exists (mkQ 1 1), [mkE 1000000 (2 * C19_QuotaBytesPerMegabyte - 1) C19_LabelNoRollUp], [], (1000001 * C19_MillisecondNs).
  split; [vm_compute; split; [reflexivity | discriminate]|]. split; vm_compute; reflexivity.
Qed.

(* beyond max_days the window arithmetic wraps and DeltaBetween panics *)
Lemma quota_days_overflow_panics :
  check_quotas [mkQ (max_days + 1) 1] [] [] 0 = QPanic.
Proof. vm_compute. reflexivity. Qed.

Definition ex_alice : uname := [97%N; 108%N].
Definition ex_bob : uname := [98%N].
Definition ex_now : Z := 1257894000 * C19_SecondNs.
Definition ex_m : metrics_map :=
  [(ex_bob, ([mkE 1257893000000 (900 * C19_QuotaBytesPerMegabyte) C19_LabelSecond], []));
   (ex_alice, ([mkE 1257721200000 (50 * C19_QuotaBytesPerMegabyte) C19_LabelHour;       (* two days old: outside a 1-day window *)
                mkE 1257893000000 (2 * C19_QuotaBytesPerMegabyte) C19_LabelSecond],
               [mkE 1257893999000 (C19_QuotaBytesPerMegabyte) C19_LabelNoRollUp]))].

(* alice: 3 MiB inside one day, 53 MiB inside three days *)
Example ex_quota :
  let p2 := mkP ex_alice [mkQ 1 2; mkQ 3 100] in      (* 3 MiB / 2 MiB: exceeded *)
  let p3 := mkP ex_alice [mkQ 1 3; mkQ 3 100] in      (* 3 MiB / 3 MiB: at the allowance, admitted *)
  let p4 := mkP ex_alice [mkQ 1 3; mkQ 3 52] in       (* second quota exceeded *)
  Forall days_ok (p_quotas p2) /\
  check_quota (Some p2) ex_alice ex_m ex_now = QRefuse /\
  check_quota (Some p3) ex_alice ex_m ex_now = QAllow /\
  check_quota (Some p4) ex_alice ex_m ex_now = QRefuse /\
  check_quota (Some (mkP ex_bob [])) ex_bob ex_m ex_now = QAllow /\
  check_quota (Some p2) ex_bob ex_m ex_now = QAllowErr /\
  name_eqb ex_bob ex_alice = false.
Proof.
  cbv zeta. split; [repeat constructor; vm_compute; try reflexivity; discriminate|].
  repeat apply conj; vm_compute; reflexivity.
Qed.

Lemma max_quota_days_ok : 0 < C19_MaxQuotaDays <= max_days.
Proof. split; vm_compute; [reflexivity | discriminate]. Qed.

Lemma validate_quota_days_ok q : validate_quota (q_days q) (q_mb q) = true -> days_ok q /\ 0 < q_mb q.
Proof.
  unfold validate_quota, days_ok. intros H.
  apply andb_true_iff in H as [H H3]. apply andb_true_iff in H as [H1 H2].
  apply Z.ltb_lt in H1, H3. apply Z.leb_le in H2. pose proof max_quota_days_ok. lia.
Qed.

Lemma validate_user_days_ok qs : validate_user_quotas qs = true -> Forall days_ok qs.
Proof.
  unfold validate_user_quotas. rewrite forallb_forall. intros H. apply Forall_forall. intros q Hin.
  apply (validate_quota_days_ok q (H q Hin)).
Qed.

Lemma check_quota_no_panic pol u m now :
  (forall p, pol = Some p -> Forall days_ok (p_quotas p)) -> check_quota pol u m now <> QPanic.
Proof.
  intros Hd. destruct (check_quota_inv pol u m now) as [E|[E|(p & up & down & -> & En & El & E)]];
    rewrite E; [discriminate ..|].
  destruct (check_quotas_spec _ up down now (Hd p eq_refl)) as [_ [E'|E']]; rewrite E'; discriminate.
Qed.

Theorem validated_quota_never_panics : forall pol u m now,
  (forall p, pol = Some p -> validate_user_quotas (p_quotas p) = true) ->
  check_quota pol u m now <> QPanic.
Proof.
  intros pol u m now Hv. apply check_quota_no_panic. intros p Ep. apply validate_user_days_ok, Hv, Ep.
Qed.

Theorem quota_refuse_iff_validated : forall pol u m now,
  (forall p, pol = Some p -> validate_user_quotas (p_quotas p) = true) ->
  (refused (check_quota pol u m now) = true <->
   exists p up down q, pol = Some p /\ p_name p = u /\ lookup u m = Some (up, down) /\
                       In q (p_quotas p) /\ exceeded q up down now).
Proof.
  intros pol u m now Hv. apply quota_refuse_iff. intros p Ep. apply validate_user_days_ok, Hv, Ep.
Qed.

Example ex_validate :
  validate_quota 1 1 = true /\ validate_quota C19_MaxQuotaDays 2047 = true /\ validate_quota (C19_MaxQuotaDays + 1) 1 = false /\
  validate_quota 0 1 = false /\ validate_quota 1 0 = false /\
  validate_user_quotas [mkQ 1 2; mkQ 30 100] = true.
Proof. repeat apply conj; vm_compute; reflexivity. Qed.
