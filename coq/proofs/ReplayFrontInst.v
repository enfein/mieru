(* The no-miss hypothesis [rc_no_miss] of the replay lemmas of proofs/ServerFrontProofs.v (stated over an abstract
   replay cache), discharged for the cache of model/Replay.v: rcache := cache, rc_dup := is_duplicate (tags and
   source addresses are both list N), rc0 := new_cache with the process-wide parameters of gen/Consts,
   rc_within := [within].  The other cache hypothesis there, [rc_nfp] (C05), is instantiated for the toy cache of
   ServerFrontProofs only (Toy.toy_nfp); its statement is that of ReplayProofs.replay_no_false_positive. *)
From Coq Require Import ZArith NArith List.
From M Require Import gen.Consts model.Replay proofs.ReplayProofs model.ServerFront.
Import ListNotations.
Open Scope Z_scope.

Definition within (capv iv : Z) (t0 : Z) (x : N) (h2 : list op) (tq : tag) (t1 : Z) : Prop :=
  mono_from t0 (h2 ++ [(x, tq, t1)]) /\ t1 < t0 + iv /\ cnt x (sigs h2) < capv.

Lemma real_no_miss (capv iv T0 : Z) (c0 : cache) :
  new_cache capv iv T0 = Some c0 -> capv <> 0 ->
  forall (h1 : list rc_op) (x : N) (ta : addr) (t0 : Z) (h2 : list rc_op) (tq : addr) (t1 : Z),
  fst (is_duplicate (rc_final cache is_duplicate c0 h1) x ta t0) = false ->
  within capv iv t0 x h2 tq t1 ->
  ta = [] \/ tq = [] \/ ta <> tq ->
  fst (is_duplicate (rc_final cache is_duplicate c0 (h1 ++ (x, ta, t0) :: h2)) x tq t1) = true.
Proof.
  (* the same function: a fact about one is accepted where the other is written *)
  change (rc_final cache is_duplicate) with final. intros NC NZ h1 x ta t0 h2 tq t1 F (M & T & C) R.
  transitivity (tag_rule ta tq); [|apply tag_rule_true, R].
  exact (replay_no_miss capv iv T0 c0 h1 x ta t0 h2 tq t1 NC NZ F M T C).
Qed.

Lemma caps_nonzero : streamReplayCapacity <> 0 /\ packetReplayCapacity <> 0.
Proof. split; apply Z.neq_sym, Z.lt_neq, process_caches_enabled. Qed.

(* the premise [new_cache .. = Some c0] of the end-to-end theorems of props/C06.v can be met *)
Example ex_new_caches :
  (exists c, new_cache streamReplayCapacity streamReplayInterval_ns 0 = Some c) /\
  (exists c, new_cache packetReplayCapacity packetReplayInterval_ns 0 = Some c).
Proof. split; eexists; reflexivity. Qed.
