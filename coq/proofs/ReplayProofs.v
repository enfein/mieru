(* The replay cache of model/Replay.v for C06: IsDuplicate as [housekeep] then [answer]/[store]; what every reachable
   state satisfies ([wf], [stored]); the no-miss argument over a window ([inv], phases A and B); the process-wide
   constants against the lifetimes of a key slot and of a timestamp; management reloads.
   ZifyBool: [lia] reads the tests of [rotate]/[expire_both] as kept by [destruct .. eqn:]. *)
From Coq Require Import ZArith NArith List Bool Lia.
From Coq Require Import ZifyBool.
From M Require Import gen.Consts model.Replay model.KeyTime proofs.KeyTimeProofs.
Import ListNotations.
Open Scope Z_scope.

Lemma tag_eqb_eq (a b : tag) : tag_eqb a b = true <-> a = b.
Proof.
  revert b. induction a as [|x a IH]; intros [|y b]; cbn [tag_eqb]; try (split; congruence).
  rewrite andb_true_iff, N.eqb_eq, IH. split; [intros [-> ->]; reflexivity|intros E; inversion E; auto].
Qed.

Definition tag_conflict (existing t : tag) : Prop := existing = [] \/ t = [] \/ existing <> t.

Lemma tag_rule_true (a t : tag) : tag_rule a t = true <-> tag_conflict a t.
Proof.
  unfold tag_rule, tag_conflict.
  destruct a as [|x a]; [split; auto|]. destruct t as [|y t]; [split; auto|]. cbn [tag_empty orb].
  rewrite negb_true_iff, <- not_true_iff_false, tag_eqb_eq.
  split; [auto|]. intros [H|[H|H]]; [discriminate..|exact H].
Qed.

Lemma tag_rule_false (a t : tag) : tag_rule a t = false <-> (a = t /\ a <> []).
Proof.
  unfold tag_rule.
  destruct a as [|x a]; [split; [discriminate|intros [_ H]; contradiction]|].
  destruct t as [|y t]; [split; [discriminate|intros [[=] _]]|]. cbn [tag_empty orb].
  rewrite negb_false_iff, tag_eqb_eq. split; [intros E; split; [exact E|discriminate]|intros [E _]; exact E].
Qed.

Definition keys (g : gen) : list N := map fst g.
Definition sigs (h : list op) : list N := map op_sig h.

Lemma lookup_in (s : N) (g : gen) (v : tag) : lookup s g = Some v -> In (s, v) g.
Proof.
  induction g as [|[k w] g IH]; cbn [lookup]; [discriminate|].
  destruct (N.eqb_spec k s) as [->|N]; [intros E; inversion E; left; reflexivity|right; auto].
Qed.

Lemma lookup_none (s : N) (g : gen) : lookup s g = None <-> ~ In s (keys g).
Proof.
  induction g as [|[k w] g IH]; cbn [lookup keys map fst In]; [split; [intros _ []|reflexivity]|].
  destruct (N.eqb_spec k s) as [->|Ne]; [split; [discriminate|intros H; destruct H; left; reflexivity]|].
  fold (keys g). split.
  - intros H [E|I]; [exact (Ne E)|exact (proj1 IH H I)].
  - intros H. apply IH. intros I. apply H. right. exact I.
Qed.

Lemma lookup_some_key (s : N) (g : gen) (v : tag) : lookup s g = Some v -> In s (keys g).
Proof.
  intros H. apply lookup_in in H. exact (in_map fst _ _ H).
Qed.

Lemma lookup_cons_ne (s x : N) (v : tag) (g : gen) : s <> x -> lookup x ((s, v) :: g) = lookup x g.
Proof. intros N. cbn [lookup]. destruct (N.eqb_spec s x); [contradiction|reflexivity]. Qed.

Lemma lookup_cons_eq (x : N) (v : tag) (g : gen) : lookup x ((x, v) :: g) = Some v.
Proof. cbn [lookup]. rewrite N.eqb_refl. reflexivity. Qed.

(* IsDuplicate in two halves.  [housekeep] is what the two tests at its head do to the generations; then the
   signature is looked up, [cur] before [prev]: [held] is the tag found, [answer] the result and [store]
   the state left behind. *)
Definition housekeep (c : cache) (now : Z) : cache := rotate (expire_both c now) now.

Definition held (c : cache) (s : N) : option tag :=
  match lookup s (cur c) with Some e => Some e | None => lookup s (prev c) end.

Definition answer (c : cache) (s : N) (t : tag) : bool :=
  match held c s with Some e => tag_rule e t | None => false end.

Definition store (c : cache) (s : N) (t : tag) : cache :=
  match lookup s (cur c) with
  | Some _ => c
  | None => with_cur c ((s, match lookup s (prev c) with Some e => e | None => t end) :: cur c)
  end.

Lemma is_duplicate_halves (c : cache) s t now :
  is_duplicate c s t now =
  if cap c =? 0 then (false, c) else (answer (housekeep c now) s t, store (housekeep c now) s t).
Proof.
  unfold is_duplicate, answer, store, held, housekeep.
  destruct (cap c =? 0); [reflexivity|]. cbv zeta.
  destruct (lookup s (cur _)); [reflexivity|]. destruct (lookup s (prev _)); reflexivity.
Qed.

Lemma is_duplicate_enabled (c : cache) s t now :
  0 < cap c -> is_duplicate c s t now = (answer (housekeep c now) s t, store (housekeep c now) s t).
Proof. intros Wc. rewrite is_duplicate_halves. destruct (Z.eqb_spec (cap c) 0); [lia|reflexivity]. Qed.

Lemma disabled_never_duplicate (c : cache) s t now : cap c = 0 -> is_duplicate c s t now = (false, c).
Proof. intros E. rewrite is_duplicate_halves, E. reflexivity. Qed.

Definition stored (c : cache) (s : N) (v : tag) : Prop := In (s, v) (cur c) \/ In (s, v) (prev c).

Lemma held_stored (c : cache) s e : held c s = Some e -> stored c s e.
Proof.
  unfold held. destruct (lookup s (cur c)) eqn:L.
  - intros [= <-]. left. apply lookup_in, L.
  - intros P. right. apply lookup_in, P.
Qed.

(* the first case is both "both generations dropped" and "rotated" *)
Lemma housekeep_cases (c : cache) now :
  (exists g, incl g (cur c) /\ housekeep c now = mkCache (cap c) (interval c) (now + interval c) [] g) \/
  (housekeep c now = c /\ now <= expire c).
Proof.
  unfold housekeep, expire_both. destruct (now - expire c >? interval c).
  - left. exists []. split; [apply incl_nil_l|].
    unfold rotate. cbn [cur cap interval expire]. destruct (_ || _); reflexivity.
  - unfold rotate. destruct (_ || _) eqn:Rot; [|right; split; [reflexivity|lia]].
    left. exists (cur c). split; [apply incl_refl|reflexivity].
Qed.

Lemma housekeep_params (c : cache) now :
  cap (housekeep c now) = cap c /\ interval (housekeep c now) = interval c.
Proof. destruct (housekeep_cases c now) as [(g & _ & ->)|[-> _]]; split; reflexivity. Qed.

Lemma housekeep_stored (c : cache) now s v : stored (housekeep c now) s v -> stored c s v.
Proof.
  destruct (housekeep_cases c now) as [(g & I & ->)|[-> _]]; [|trivial].
  intros [[]|H]. left. apply I, H.
Qed.

Lemma housekeep_expire (c : cache) now : 0 < interval c -> now <= expire (housekeep c now).
Proof. intros Wi. destruct (housekeep_cases c now) as [(g & _ & ->)|[-> L]]; cbn [expire]; lia. Qed.

Lemma store_fields (c : cache) s t :
  cap (store c s t) = cap c /\ interval (store c s t) = interval c /\
  expire (store c s t) = expire c /\ prev (store c s t) = prev c.
Proof. unfold store. destruct (lookup s (cur c)); repeat split. Qed.

Lemma store_held (c : cache) s t :
  lookup s (cur (store c s t)) = Some (match held c s with Some e => e | None => t end).
Proof. unfold store, held. destruct (lookup s (cur c)) eqn:L; [exact L|apply lookup_cons_eq]. Qed.

Lemma store_other (c : cache) s t x : s <> x -> lookup x (cur (store c s t)) = lookup x (cur c).
Proof. intros Ne. unfold store. destruct (lookup s (cur c)); [reflexivity|apply lookup_cons_ne, Ne]. Qed.

(* l: the signatures still to come; the key [store] may add to [cur] comes off their head *)
Lemma store_keys (c : cache) s t (l : list N) :
  incl (keys (cur (store c s t)) ++ l) (keys (cur c) ++ s :: l).
Proof.
  assert (I : incl (keys (cur c) ++ l) (keys (cur c) ++ s :: l)).
  { apply incl_app_app; [apply incl_refl|apply incl_tl, incl_refl]. }
  unfold store. destruct (lookup s (cur c)); [exact I|]. apply incl_cons; [apply in_elt|exact I].
Qed.

Lemma store_stored (c : cache) s t s' v : stored (store c s t) s' v -> stored c s' v \/ (s' = s /\ v = t).
Proof.
  unfold store. destruct (lookup s (cur c)); [auto|].
  intros [[E|H]|H]; [|left; left; exact H|left; right; exact H].
  injection E as <- <-. destruct (lookup s (prev c)) eqn:P; [|auto].
  left. right. apply lookup_in, P.
Qed.

(* NoDup of [cur] only: it makes |cur| a count of distinct signatures ([len_le_cnt]), which is what rules
   out a second rotation in [inv_housekeep]; nothing is needed of [prev] *)
Definition wf (c : cache) : Prop := 0 < cap c /\ 0 < interval c /\ NoDup (keys (cur c)).

Lemma housekeep_wf (c : cache) now : wf c -> wf (housekeep c now).
Proof.
  intros W. destruct (housekeep_cases c now) as [(g & _ & ->)|[-> _]]; [|exact W].
  destruct W as (Wc & Wi & _). repeat split; [exact Wc|exact Wi|constructor].
Qed.

Lemma store_wf (c : cache) s t : wf c -> wf (store c s t).
Proof.
  intros (Wc & Wi & Wn). unfold store. destruct (lookup s (cur c)) eqn:L; repeat split; try assumption.
  constructor; [apply lookup_none, L|exact Wn].
Qed.

Lemma is_duplicate_params (c : cache) s t now :
  cap (snd (is_duplicate c s t now)) = cap c /\ interval (snd (is_duplicate c s t now)) = interval c.
Proof.
  rewrite is_duplicate_halves. destruct (cap c =? 0); [split; reflexivity|]. cbn [snd].
  destruct (store_fields (housekeep c now) s t) as (-> & -> & _). apply housekeep_params.
Qed.

Lemma is_duplicate_wf (c : cache) s t now : wf c -> wf (snd (is_duplicate c s t now)).
Proof.
  intros W. rewrite is_duplicate_halves. destruct (cap c =? 0); [exact W|].
  apply store_wf, housekeep_wf, W.
Qed.

Lemma new_cache_some capv iv now c :
  new_cache capv iv now = Some c -> 0 <= capv /\ 0 < iv /\ c = mkCache capv iv (now + iv) [] [].
Proof.
  unfold new_cache. destruct (Z.ltb_spec capv 0); [discriminate|]. destruct (Z.leb_spec iv 0); [discriminate|].
  intros [= <-]. auto.
Qed.

Lemma final_app (h1 h2 : list op) : forall c, final c (h1 ++ h2) = final (final c h1) h2.
Proof. induction h1 as [|o h1 IH]; intros c; cbn [final app]; auto. Qed.

Lemma final_keeps (h : list op) : forall c, wf c ->
  wf (final c h) /\ cap (final c h) = cap c /\ interval (final c h) = interval c.
Proof.
  induction h as [|o h IH]; intros c W; cbn [final]; [auto|].
  destruct (IH (snd (step c o)) (is_duplicate_wf c _ _ _ W)) as (W2 & -> & ->).
  split; [exact W2|apply is_duplicate_params].
Qed.

Lemma final_new_cache capv iv T0 c0 (h : list op) :
  new_cache capv iv T0 = Some c0 -> capv <> 0 ->
  wf (final c0 h) /\ cap (final c0 h) = capv /\ interval (final c0 h) = iv.
Proof.
  intros E Nz. apply new_cache_some in E. destruct E as (Hc & Hi & ->).
  apply final_keeps. repeat split; cbn; [lia|exact Hi|constructor].
Qed.

Lemma stored_step (c : cache) (o : op) s v :
  stored (snd (step c o)) s v -> stored c s v \/ (s = op_sig o /\ v = op_tag o).
Proof.
  unfold step. rewrite is_duplicate_halves. destruct (cap c =? 0); [auto|]. cbn [snd].
  intros H. apply store_stored in H. destruct H as [H|H]; [left; apply housekeep_stored in H; exact H|auto].
Qed.

Lemma stored_final (h : list op) s v : forall c,
  stored (final c h) s v -> stored c s v \/ exists now, In (s, v, now) h.
Proof.
  induction h as [|o h IH]; intros c H; cbn [final] in H; [auto|].
  apply IH in H. destruct H as [H|[n H]]; [|right; exists n; right; exact H].
  apply stored_step in H. destruct H as [H|[-> ->]]; [auto|].
  right. exists (op_time o). left. destruct o as [[s t] n]. reflexivity.
Qed.

Lemma dup_true_stored (c : cache) s t now :
  fst (is_duplicate c s t now) = true -> exists v, tag_conflict v t /\ stored c s v.
Proof.
  rewrite is_duplicate_halves. destruct (cap c =? 0); [discriminate|]. cbn [fst]. unfold answer.
  destruct (held (housekeep c now) s) as [v|] eqn:Hd; [|discriminate].
  intros H. exists v. split; [apply tag_rule_true, H|].
  apply (housekeep_stored c now), held_stored, Hd.
Qed.

Lemma replay_no_false_positive (capv iv T0 : Z) (c0 : cache) (h : list op) (s : N) (t : tag) (now : Z) :
  new_cache capv iv T0 = Some c0 ->
  fst (step (final c0 h) (s, t, now)) = true ->
  exists t' now', In (s, t', now') h /\ tag_conflict t' t.
Proof.
  intros E H. apply dup_true_stored in H. destruct H as (v & Hc & Hin).
  apply new_cache_some in E. destruct E as (_ & _ & ->).
  apply stored_final in Hin. destruct Hin as [[[]|[]]|[n I]]. exists v, n. auto.
Qed.

(* [cnt x l]: the number of distinct signatures in l other than x *)
Definition others (x : N) (l : list N) : list N := nodup N.eq_dec (remove N.eq_dec x l).
Definition cnt (x : N) (l : list N) : Z := Z.of_nat (length (others x l)).

Lemma in_others (x a : N) (l : list N) : In a (others x l) <-> In a l /\ a <> x.
Proof.
  unfold others. rewrite nodup_In. split; [apply in_remove|]. intros [Ha Hn]. apply in_in_remove; assumption.
Qed.

Lemma cnt_lt_incl (x : N) (l1 l2 : list N) (b : Z) : incl l1 l2 -> cnt x l2 < b -> cnt x l1 < b.
Proof.
  intros I. apply Z.le_lt_trans. apply inj_le, NoDup_incl_length; [apply NoDup_nodup|].
  intros a. rewrite !in_others. intros [Ha Hn]. split; [apply I, Ha|exact Hn].
Qed.

Lemma len_le_cnt (x : N) (l l' : list N) : NoDup l -> ~ In x l -> Z.of_nat (length l) <= cnt x (l ++ l').
Proof.
  intros Hn Hx. apply inj_le, NoDup_incl_length; [exact Hn|].
  intros a Ha. apply in_others. split; [apply in_or_app; left; exact Ha|intros ->; contradiction].
Qed.

(* x is presented at t0 and held with tag e; the window [t0, t1] is shorter than the interval; h is the traffic
   still to come.  Phase A: x is in [cur].  Phase B: a rotation has moved x to [prev]; it happened inside
   the window, so the next expiry is beyond t1, and [cur] with what is still to come stays below the
   capacity: no second rotation before t1. *)
Section Window.
  Variables (x : N) (e : tag) (t0 t1 : Z).

  Definition phaseA (c : cache) (h : list op) : Prop :=
    lookup x (cur c) = Some e /\ t0 <= expire c /\ cnt x (sigs h) < cap c.

  Definition phaseB (c : cache) (h : list op) : Prop :=
    lookup x (cur c) = None /\ lookup x (prev c) = Some e /\ t1 < expire c /\
    cnt x (keys (cur c) ++ sigs h) < cap c.

  Definition inv (c : cache) (h : list op) : Prop :=
    wf c /\ t0 <= t1 < t0 + interval c /\ (phaseA c h \/ phaseB c h).

  Lemma inv_held (c : cache) (h : list op) : inv c h -> held c x = Some e.
  Proof. intros (_ & _ & [(Hx & _)|(Hx & Hp & _)]); unfold held; rewrite Hx; [reflexivity|exact Hp]. Qed.

  (* never both generations dropped; a rotation only in phase A, and it leads to phase B *)
  Lemma inv_housekeep (c : cache) (h : list op) (now : Z) :
    inv c h -> t0 <= now <= t1 -> inv (housekeep c now) h.
  Proof.
    intros I Hn. pose proof I as (W & Hw & Ph).
    split; [apply housekeep_wf, W|]. split; [rewrite (proj2 (housekeep_params c now)); exact Hw|].
    destruct W as (Wc & Wi & Wn). unfold housekeep.
    replace (expire_both c now) with c.
    2:{ unfold expire_both. destruct (Z.gtb_spec (now - expire c) (interval c)) as [G|_]; [|reflexivity].
        destruct Ph as [(_ & He & _)|(_ & _ & He & _)]; lia. }
    unfold rotate. destruct ((Z.of_nat (length (cur c)) >=? cap c) || (now >? expire c)) eqn:Rot; [|exact Ph].
    destruct Ph as [(Hx & He & Hc)|(Hx & Hp & He & Hc)].
    - right. repeat split; cbn [cur prev expire cap]; [exact Hx|lia|exact Hc].
    - exfalso. apply lookup_none in Hx.
      pose proof (len_le_cnt x (keys (cur c)) (sigs h) Wn Hx) as L. unfold keys in L at 1. rewrite map_length in L.
      lia.
  Qed.

  Lemma inv_store (c : cache) s t now (h : list op) :
    inv c ((s, t, now) :: h) -> inv (store c s t) h.
  Proof.
    intros I. pose proof (inv_held c _ I) as Hd. destruct I as (W & Hw & Ph).
    destruct (store_fields c s t) as (Fc & Fi & Fe & Fp).
    split; [apply store_wf, W|]. split; [rewrite Fi; exact Hw|].
    unfold phaseA, phaseB in *. rewrite Fc, Fe, Fp. change (sigs ((s, t, now) :: h)) with (s :: sigs h) in Ph.
    destruct (N.eq_dec s x) as [->|Ne].
    - (* s = x *)
      left. rewrite store_held, Hd. split; [reflexivity|].
      destruct Ph as [(_ & He & Hc)|(_ & _ & He & Hc)]; (split; [lia|]).
      + (* from phase A *) exact (cnt_lt_incl x _ _ _ (incl_tl x (incl_refl _)) Hc).
      + (* from phase B *) exact (cnt_lt_incl x _ _ _ (incl_appr _ (incl_tl x (incl_refl _))) Hc).
    - rewrite (store_other c s t x Ne).
      destruct Ph as [(Hx & He & Hc)|(Hx & Hp & He & Hc)]; [left|right]; repeat split; try assumption.
      + exact (cnt_lt_incl x _ _ _ (incl_tl s (incl_refl _)) Hc).
      + exact (cnt_lt_incl x _ _ _ (store_keys c s t (sigs h)) Hc).
  Qed.

  Lemma inv_step (c : cache) (o : op) (h : list op) :
    inv c (o :: h) -> t0 <= op_time o <= t1 -> inv (snd (step c o)) h.
  Proof.
    intros I Hn. destruct o as [[s t] now]. unfold step. rewrite is_duplicate_enabled by apply I.
    apply (inv_store _ s t now), inv_housekeep; assumption.
  Qed.

  Lemma inv_final (h : list op) : forall c,
    inv c h -> Forall (fun o => t0 <= op_time o <= t1) h -> inv (final c h) [].
  Proof.
    induction h as [|o h IH]; intros c I F; cbn [final]; [assumption|].
    inversion F; subst. apply IH; [apply inv_step; assumption|assumption].
  Qed.

  Lemma inv_query (c : cache) (h : list op) (tq : tag) (now : Z) :
    inv c h -> t0 <= now <= t1 -> fst (is_duplicate c x tq now) = tag_rule e tq.
  Proof.
    intros I Hn. rewrite is_duplicate_enabled by apply I.
    cbn [fst]. unfold answer. rewrite (inv_held _ h (inv_housekeep c h now I Hn)). reflexivity.
  Qed.
End Window.

(* e: the tag the cache holds for x after the presentation at t0 - that of an earlier presenter if x was stored,
   else ta *)
Lemma inv_init (c : cache) (x : N) (ta : tag) (t0 t1 : Z) (h : list op) :
  wf c -> t0 <= t1 -> t1 < t0 + interval c -> cnt x (sigs h) < cap c ->
  exists e, inv x e t0 t1 (snd (is_duplicate c x ta t0)) h /\
            (fst (is_duplicate c x ta t0) = false -> e = ta) /\
            (e = ta \/ stored c x e).
Proof.
  intros W H01 Hi Hc. rewrite is_duplicate_enabled by apply W. cbn [fst snd].
  pose proof (housekeep_wf c t0 W) as W2. destruct (housekeep_params c t0) as [Pc Pi].
  pose proof (housekeep_expire c t0 (proj1 (proj2 W))) as E2.
  set (c2 := housekeep c t0) in *.
  destruct (store_fields c2 x ta) as (Fc & Fi & Fe & _).
  (* after [store], x is in [cur]: phase A *)
  assert (K : forall e, lookup x (cur (store c2 x ta)) = Some e -> inv x e t0 t1 (store c2 x ta) h).
  { intros e L. split; [apply store_wf, W2|]. split; [rewrite Fi, Pi; lia|].
    left. split; [exact L|]. split; [rewrite Fe; exact E2|rewrite Fc, Pc; exact Hc]. }
  pose proof (store_held c2 x ta) as L. unfold answer.
  destruct (held c2 x) as [e|] eqn:Hd.
  - exists e. split; [apply K, L|]. split.
    + intros F. apply tag_rule_false in F. apply F.
    + right. apply (housekeep_stored c t0), held_stored, Hd.
  - exists ta. split; [apply K, L|]. split; [reflexivity|]. left. reflexivity.
Qed.

Fixpoint mono_from (t : Z) (h : list op) : Prop :=
  match h with
  | [] => True
  | o :: h' => t <= op_time o /\ mono_from (op_time o) h'
  end.

Lemma mono_bounds (h : list op) : forall t q,
  mono_from t (h ++ [q]) -> Forall (fun o => t <= op_time o <= op_time q) h /\ t <= op_time q.
Proof.
  induction h as [|o h IH]; intros t q M; cbn [app mono_from] in M.
  - split; [constructor|apply M].
  - destruct M as [M1 M2]. destruct (IH _ _ M2) as [F L]. split; [|lia].
    constructor; [lia|]. eapply Forall_impl; [|exact F]. cbn. intros; lia.
Qed.

Lemma replay_no_miss_stored (c : cache) (x : N) (ta : tag) (t0 : Z) (h2 : list op) (tq : tag) (t1 : Z) :
  wf c ->
  mono_from t0 (h2 ++ [(x, tq, t1)]) ->
  t1 < t0 + interval c ->
  cnt x (sigs h2) < cap c ->
  exists e,
    fst (step (final c ((x, ta, t0) :: h2)) (x, tq, t1)) = tag_rule e tq /\
    (fst (step c (x, ta, t0)) = false -> e = ta) /\
    (e = ta \/ stored c x e).
Proof.
  intros W M Hi Hc. apply mono_bounds in M. destruct M as [F L]. cbn [op_time snd] in *.
  destruct (inv_init c x ta t0 t1 h2 W L Hi Hc) as (e & I & Ha & Hs).
  exists e. split; [|split; assumption].
  cbn [final]. unfold step, op_sig, op_tag, op_time. cbn [fst snd].
  apply (inv_query x e t0 t1 _ []); [apply inv_final; [exact I|exact F]|lia].
Qed.

Lemma replay_no_miss (capv iv T0 : Z) (c0 : cache) (h1 : list op)
      (x : N) (ta : tag) (t0 : Z) (h2 : list op) (tq : tag) (t1 : Z) :
  new_cache capv iv T0 = Some c0 -> capv <> 0 ->
  fst (step (final c0 h1) (x, ta, t0)) = false ->
  mono_from t0 (h2 ++ [(x, tq, t1)]) ->
  t1 < t0 + iv ->
  cnt x (sigs h2) < capv ->
  fst (step (final c0 (h1 ++ (x, ta, t0) :: h2)) (x, tq, t1)) = tag_rule ta tq.
Proof.
  intros E Nz Acc M Hi Hc. destruct (final_new_cache capv iv T0 c0 h1 E Nz) as (W & <- & <-).
  destruct (replay_no_miss_stored _ x ta t0 h2 tq t1 W M Hi Hc) as (e & R & Ha & _).
  rewrite final_app, R, (Ha Acc). reflexivity.
Qed.

Lemma replay_no_miss_empty_tag (capv iv T0 : Z) (c0 : cache) (h1 : list op)
      (x : N) (ta : tag) (t0 : Z) (h2 : list op) (t1 : Z) :
  new_cache capv iv T0 = Some c0 -> capv <> 0 ->
  mono_from t0 (h2 ++ [(x, [], t1)]) ->
  t1 < t0 + iv ->
  cnt x (sigs h2) < capv ->
  fst (step (final c0 (h1 ++ (x, ta, t0) :: h2)) (x, [], t1)) = true.
Proof.
  intros E Nz M Hi Hc. destruct (final_new_cache capv iv T0 c0 h1 E Nz) as (W & <- & <-).
  destruct (replay_no_miss_stored _ x ta t0 h2 [] t1 W M Hi Hc) as (e & R & _).
  rewrite final_app. etransitivity; [exact R|]. apply tag_rule_true. right. left. reflexivity.
Qed.

Definition tA : tag := [65%N].
Definition tB : tag := [66%N].
Definition witness_v0 : list op :=
  [ (1%N, [], 0); (2%N, tA, 0); (2%N, tB, 0); (3%N, [], 0); (2%N, tB, 0) ].

(* the history of the witness of C06_pinned_code_no_miss_refuted, on the fixed function *)
Lemma fixed_rejects_witness :
  outs (mkCache 2 60 60 [] []) witness_v0 = [false; false; true; false; true].
Proof. vm_compute. reflexivity. Qed.

Lemma process_caches_enabled : 0 < streamReplayCapacity /\ 0 < packetReplayCapacity.
Proof. split; reflexivity. Qed.

Lemma process_caches_interval :
  streamReplayInterval_ns = 3 * KeyRefreshInterval_ns /\ packetReplayInterval_ns = 3 * KeyRefreshInterval_ns.
Proof. split; reflexivity. Qed.

(* slots are unix seconds, R is nanoseconds: 120 is R in seconds *)
Lemma slot_near (k t : Z) :
  In k (slots R t) -> exists j, k = j * 120 /\ 2 * t - 3 * R < 2 * (j * R) <= 2 * t + 3 * R.
Proof.
  assert (0 < R) by reflexivity.
  rewrite slots_char. destruct (epoch_char t) as (k0 & -> & B).
  intros [<-|[<-|[<-|[]]]]; [exists (k0 - 1)|exists k0|exists (k0 + 1)]; split; lia.
Qed.

Lemma retention_covers_key (k t0 t1 : Z) :
  In k (slots KeyRefreshInterval_ns t0) -> In k (slots KeyRefreshInterval_ns t1) -> t0 <= t1 ->
  t1 < t0 + streamReplayInterval_ns /\ t1 < t0 + packetReplayInterval_ns.
Proof.
  fold R. intros H0 H1 L. apply slot_near in H0, H1. destruct H0 as (j & -> & B0), H1 as (j1 & E & B1).
  assert (j1 = j) as -> by lia.
  destruct process_caches_interval as [-> ->]. fold R. lia.
Qed.

Lemma timestamp_ok_close (ts t : Z) : era ts -> era t -> timestamp_ok t ts = true -> Z.abs (t - ts) < 2 * S60.
Proof.
  intros Es Et H. apply Z.nle_gt. intros G.
  pose proof (stale_minute_refused ts (t - ts) Es) as X.
  replace (ts + (t - ts)) with t in X by lia. rewrite (X Et G) in H. discriminate.
Qed.

Lemma retention_covers_timestamp (ts t0 t1 : Z) :
  era ts -> era t0 -> era t1 ->
  timestamp_ok t0 ts = true -> timestamp_ok t1 ts = true -> t0 <= t1 ->
  t1 < t0 + streamReplayInterval_ns /\ t1 < t0 + packetReplayInterval_ns.
Proof.
  intros Es E0 E1 H0 H1 L.
  pose proof (timestamp_ok_close ts t0 Es E0 H0). pose proof (timestamp_ok_close ts t1 Es E1 H1).
  unfold S60, NS, streamReplayInterval_ns, packetReplayInterval_ns in *. lia.
Qed.

Definition c_ex : cache := mkCache 2 100 100 [] [].

(* rotation by size (cap 2): 5 and x=7 fill [cur], 9 rotates, x is found in [prev] *)
Example ex_rotate_by_size :
  outs c_ex [(5%N, [], 0); (7%N, tA, 1); (9%N, [], 2); (7%N, tB, 3)] = [false; false; false; true]
  /\ sizes (final c_ex [(5%N, [], 0); (7%N, tA, 1); (9%N, [], 2)]) = (1, 2).
Proof. vm_compute. split; reflexivity. Qed.

(* rotation by time: 150 > expire = 100 rotates, new expire 250; at 460 > 250 + 100 both generations are dropped *)
Example ex_rotate_by_time :
  outs c_ex [(7%N, tA, 60); (7%N, tB, 150); (7%N, tB, 155); (7%N, tB, 460)] = [false; true; true; false]
  /\ expire (final c_ex [(7%N, tA, 60); (7%N, tB, 150)]) = 250
  /\ sizes (final c_ex [(7%N, tA, 60); (7%N, tB, 150)]) = (1, 1).
Proof. vm_compute. repeat split; reflexivity. Qed.

(* the hypotheses of replay_no_miss are satisfiable with a rotation inside the window *)
Example ex_no_miss_hyps :
  exists c0, new_cache 2 100 0 = Some c0 /\
    fst (step (final c0 [(5%N, [], 0)]) (7%N, tA, 1)) = false /\
    mono_from 1 ([(9%N, [], 2)] ++ [(7%N, tB, 3)]) /\ 3 < 1 + 100 /\ cnt 7%N (sigs [(9%N, [], 2)]) < 2 /\
    tag_rule tA tB = true.
Proof. exists c_ex. vm_compute. repeat split; congruence. Qed.

(* the retransmission from the same non-empty tag is let through, also across a rotation *)
Example ex_same_tag_passes :
  outs c_ex [(5%N, [], 0); (7%N, tA, 1); (9%N, [], 2); (7%N, tA, 3); (7%N, tB, 3)] = [false; false; false; false; true].
Proof. vm_compute. reflexivity. Qed.

Lemma set_users_spec (s : server) (g : N) : s_rc (set_users s g) = s_rc s /\ s_users (set_users s g) = g.
Proof. split; reflexivity. Qed.

Lemma presents_app (h1 h2 : list sop) : presents (h1 ++ h2) = presents h1 ++ presents h2.
Proof.
  induction h1 as [|[o|g] h1 IH]; cbn [presents app]; [reflexivity| |assumption].
  rewrite IH. reflexivity.
Qed.

Lemma sstep_present (s : server) (o : op) :
  sstep s (Present o) = (Some (fst (step (s_rc s) o)), mkServer (s_users s) (snd (step (s_rc s) o))).
Proof. unfold sstep. destruct (step (s_rc s) o). reflexivity. Qed.

Fixpoint last_reload (g0 : N) (h : list sop) : N :=
  match h with
  | [] => g0
  | Present _ :: h' => last_reload g0 h'
  | Reload g :: h' => last_reload g h'
  end.

Lemma sfinal_spec (h : list sop) : forall s,
  sfinal s h = mkServer (last_reload (s_users s) h) (final (s_rc s) (presents h)).
Proof.
  induction h as [|[o|g] h IH]; intros s; cbn [sfinal presents final last_reload].
  - destruct s. reflexivity.
  - rewrite IH, sstep_present. reflexivity.
  - rewrite IH. reflexivity.
Qed.

Lemma sfinal_cache (h : list sop) : forall s, s_rc (sfinal s h) = final (s_rc s) (presents h).
Proof. intros s. rewrite sfinal_spec. reflexivity. Qed.

Lemma sfinal_users (h : list sop) : forall s, s_users (sfinal s h) = last_reload (s_users s) h.
Proof. intros s. rewrite sfinal_spec. reflexivity. Qed.

Lemma replay_no_miss_across_reload (capv iv T0 : Z) (c0 : cache) (g0 : N) (hs1 : list sop)
      (x : N) (ta : tag) (t0 : Z) (hs2 : list sop) (tq : tag) (t1 : Z) :
  new_cache capv iv T0 = Some c0 -> capv <> 0 ->
  fst (sstep (sfinal (mkServer g0 c0) hs1) (Present (x, ta, t0))) = Some false ->
  mono_from t0 (presents hs2 ++ [(x, tq, t1)]) ->
  t1 < t0 + iv ->
  cnt x (sigs (presents hs2)) < capv ->
  fst (sstep (sfinal (mkServer g0 c0) (hs1 ++ Present (x, ta, t0) :: hs2)) (Present (x, tq, t1))) = Some (tag_rule ta tq).
Proof.
  intros E N Acc M Hi Hc.
  rewrite sstep_present, sfinal_cache in Acc. injection Acc as Acc.
  rewrite sstep_present, sfinal_cache, presents_app. cbn [fst]. f_equal.
  exact (replay_no_miss capv iv T0 c0 (presents hs1) x ta t0 (presents hs2) tq t1 E N Acc M Hi Hc).
Qed.

Example ex_reload_between :
  let s0 := mkServer 0 c_ex in
  let h := [Present (5%N, [], 0); Present (7%N, tA, 1); Reload 1; Present (9%N, [], 2); Reload 2; Reload 3] in
  fst (sstep (sfinal s0 h) (Present (7%N, tB, 3))) = Some true /\ s_users (sfinal s0 h) = 3%N /\
  presents h = [(5%N, [], 0); (7%N, tA, 1); (9%N, [], 2)].
Proof. vm_compute. repeat split; reflexivity. Qed.
