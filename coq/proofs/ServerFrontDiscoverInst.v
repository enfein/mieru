(* C05 x C07: the server's front door (model/ServerFront.v) composed with user discovery (model/Discover.v).
   ServerFront is parameterised by [cands h src], "the keys discovery tries for this header", and its theorems
   have the premise [cands_registered] (discovery only tries registered keys).  Here the parameters are
   INSTANTIATED with the discovery model of C07:
     key            := the id (N, dense from 1) of a user in the published generation [users : list U]
     open_hdr i h   := open_k (key_of u) h  for the user u with id i (None for an unregistered id)
     auth h u       := "u's key opens h",  hint h u := CheckUserFromHint(u.name, nonce of h) - any function
     cands h src    := the user that try_state attributes the segment to (registry.go tryState: cached hint
                       matches, registry hint matches, cached fallback, registry fallback; [cached src] is
                       whatever the source-address cache returns, [mandatory] the hint-mandatory switch)
   so that tcp_front / udp_front run "Discover, then decrypt with the winning user's cipher". *)
From Coq Require Import List ZArith.
(* model/Discover.v has a [usession], [udp_run], [us_*] of its own: ServerFront comes last, so these names are its *)
From M Require Import model.Discover proofs.DiscoverProofs model.ServerFront proofs.ServerFrontProofs.
Import ListNotations.
Open Scope Z_scope.

(* user id -> cipher operation of that user (nothing for an id that is not registered) *)
Definition by_id {U K A} (users : list U) (key_of : U -> K) (f : K -> A) (dflt : A) (i : N) : A :=
  match user_by_id U users i with Some u => f (key_of u) | None => dflt end.

Definition d_open {U K} (users : list U) (key_of : U -> K) (open_k : K -> bytes -> option bytes) (i : N) (h : bytes) : option bytes :=
  by_id users key_of (fun k => open_k k h) None i.
Definition d_body {U K} (users : list U) (key_of : U -> K) (body : K -> bytes -> bytes -> option bytes) (i : N) (h box : bytes) : option bytes :=
  by_id users key_of (fun k => body k h box) None i.

Definition d_auth {U K} (key_of : U -> K) (open_k : K -> bytes -> option bytes) (h : bytes) (u : U) : bool :=
  match open_k (key_of u) h with Some _ => true | None => false end.

Definition d_try {U K} (users : list U) (key_of : U -> K) (open_k : K -> bytes -> option bytes)
           (hint : bytes -> U -> bool) (cached : addr -> list N) (mandatory : bool) (h : bytes) (src : addr) : result U :=
  try_state U (hint h) (d_auth key_of open_k h) users (cached src) mandatory.

Definition d_cands {U K} (users : list U) (key_of : U -> K) (open_k : K -> bytes -> option bytes)
           (hint : bytes -> U -> bool) (cached : addr -> list N) (mandatory : bool) (h : bytes) (src : addr) : list N :=
  match r_hit (d_try users key_of open_k hint cached mandatory h src) with
  | Some (i, _, _) => [i]
  | None => []
  end.

(* ids of the registered users: 1 .. length users *)
Definition reg_ids {U} (users : list U) : list N := map fst (index_from U 1%N users).

Definition tcp_front_d {U K} (users : list U) (key_of : U -> K) (open_k : K -> bytes -> option bytes)
           (body_tcp : K -> bytes -> bytes -> option bytes) (hint : bytes -> U -> bool) (cached : addr -> list N) (mandatory : bool)
           (le_ok : bytes -> bool) (le_decode : bytes -> bytes -> option bytes) (sig_of : bytes -> N)
           (rcache : Type) (rc_dup : rcache -> N -> addr -> Z -> bool * rcache) :=
  tcp_front N (d_open users key_of open_k) (d_body users key_of body_tcp) le_ok le_decode
            (d_cands users key_of open_k hint cached mandatory) sig_of rcache rc_dup.

Section DiscoverInst.
  Variables U K : Type.
  Variable users : list U.
  Variable key_of : U -> K.
  Variable open_k : K -> bytes -> option bytes.
  Variable body : K -> bytes -> bytes -> option bytes.
  Variable hint : bytes -> U -> bool.
  Variable cached : addr -> list N.
  Variable mandatory : bool.
  Variable le_ok : bytes -> bool.
  Variable le_decode : bytes -> bytes -> option bytes.
  Variable sig_of : bytes -> N.
  Variable rcache : Type.
  Variable rc_dup : rcache -> N -> addr -> Z -> bool * rcache.

  Notation dtry := (d_try users key_of open_k hint cached mandatory).
  Notation dcands := (d_cands users key_of open_k hint cached mandatory).
  Notation tcpD := (tcp_front_d users key_of open_k body hint cached mandatory le_ok le_decode sig_of rcache rc_dup).
  (* the UDP counterpart of [tcp_front_d]; the user of a key is the id itself *)
  Notation udpD := (udp_run N (fun i => i) (d_open users key_of open_k) (d_body users key_of body) le_ok le_decode
                            dcands sig_of rcache rc_dup).

  Lemma reg_ids_spec (i : N) : In i (reg_ids users) <-> exists u, user_by_id U users i = Some u.
  Proof.
    unfold reg_ids. rewrite in_map_iff. split.
    - intros [[j u] [<- I]]. exists u. apply (index_ubi U (fun _ => true) (fun _ => true)). exact I.
    - intros [u H]. exists (i, u). split; [reflexivity|]. apply (index_ubi U (fun _ => true) (fun _ => true)). exact H.
  Qed.

  Lemma d_cands_registered (h : bytes) (src : addr) (i : N) : In i (dcands h src) -> In i (reg_ids users).
  Proof.
    unfold d_cands. destruct (r_hit (dtry h src)) as [[[j u] o]|] eqn:E; [|intros []].
    intros [<-|[]]. apply attr_sound in E. apply reg_ids_spec. exists u. exact (proj1 E).
  Qed.

  Lemma d_tried_registered (h : bytes) (src : addr) (i : N) : In i (r_tried (dtry h src)) -> In i (reg_ids users).
  Proof. intros H. apply reg_ids_spec. apply attr_tried_registered in H. exact H. Qed.

  Lemma d_no_key_opens (h : bytes) :
    (forall u, In u users -> open_k (key_of u) h = None) ->
    no_key_opens N (d_open users key_of open_k) (reg_ids users) h.
  Proof.
    intros H i Hi. apply reg_ids_spec in Hi. destruct Hi as [u E].
    unfold d_open, by_id. rewrite E. apply H. exact (ubi_in U (fun _ => true) (fun _ => true) users i u E).
  Qed.

  (* the premise follows from INT-CTXT about the users' real keys, or from key separation (UserTableProofs.v) *)
  Lemma tcp_front_d_silent (rc : rcache) (src : addr) (input : bytes) (now : Z) :
    (forall u, In u users -> open_k (key_of u) (firstn hdr_len input) = None) ->
    let r := fst (tcpD rc src input now) in
    tcp_silent N r /\ (t_verdict r = V_blocked \/ t_verdict r = V_crypto \/ t_verdict r = V_replay).
  Proof.
    intros H. apply tcp_no_key_silent with (keys := reg_ids users); [exact d_cands_registered|].
    apply d_no_key_opens. exact H.
  Qed.

  Lemma udp_run_d_silent (P : bytes -> Prop) (probe : event -> bool) (evs : list event) (st : ustate N rcache) :
    (forall h, P h -> forall u, In u users -> open_k (key_of u) h = None) ->
    sess_ok N (reg_ids users) (u_sessions st) ->
    (forall e, In e evs -> probe e = true -> probe_with P e) ->
    forall e r,
    In (e, r) (fst (udpD st evs)) -> probe e = true ->
    udp_silent N r /\ (u_verdict r = V_short \/ u_verdict r = V_undecryptable).
  Proof.
    intros H. apply udp_run_no_key_silent with (keys := reg_ids users); [exact d_cands_registered|].
    intros h Ph. apply d_no_key_opens. exact (H h Ph).
  Qed.

  (* last conjunct: if the key of ANY registered hint-matching user opens the header, the user the cipher is
     attributed to matches the hint (attr_hint_pref) *)
  Lemma c05_recv_attribution (rc : rcache) (src : addr) (input : bytes) (now : Z) (i : N) :
    t_recv (fst (tcpD rc src input now)) = Some i ->
    let h := firstn hdr_len input in
    exists u o m,
      r_hit (dtry h src) = Some (i, u, o) /\
      user_by_id U users i = Some u /\ In u users /\
      open_k (key_of u) h = Some m /\
      hint h u = origin_hint o /\
      (mandatory = true -> hint h u = true) /\
      ((exists j v, user_by_id U users j = Some v /\ hint h v = true /\ open_k (key_of v) h <> None) -> hint h u = true).
  Proof.
    intros R h. unfold tcp_front_d in R. apply tcp_recv_from_discovery in R. destruct R as [m F]. fold h in F.
    unfold d_cands in F.
    destruct (r_hit (dtry h src)) as [[[j u] o]|] eqn:E; [|discriminate].
    simpl in F. destruct (d_open users key_of open_k j h) as [m'|] eqn:O; [|discriminate].
    inversion F; subst j m'. clear F.
    pose proof E as S. apply attr_sound in S. destruct S as [A1 [A2 [A3 [A4 A5]]]].
    unfold d_open, by_id in O. rewrite A1 in O.
    exists u, o, m. repeat split; auto.
    - intros M. rewrite A4. apply A5. exact M.
    - intros [j [v [V1 [V2 V3]]]].
      destruct (attr_hint_pref U (hint h) (d_auth key_of open_k h) users (cached src) mandatory) as [j' [v' [o' [E' [H1 H2]]]]].
      { exists j, v. repeat split; auto. unfold d_auth. destruct (open_k (key_of v) h); [reflexivity | contradiction]. }
      unfold d_try in E. rewrite E in E'. inversion E'; subst. exact H1.
  Qed.
End DiscoverInst.

(* non-vacuity, with the toy cipher of ServerFrontProofs.Toy *)
Module ToyD.
  Import Toy.
  Definition tusers : list N := [1%N; 2%N].       (* a user is its own key *)
  Notation ttcpD := (tcp_front_d tusers (fun u => u) topen tbody (fun _ _ => false) (fun _ => []) false
                                 (fun _ => true) (fun _ w => Some w) tsig tcache tdup).
  Example ex_discover_accepts :
    let r := fst (ttcpD [] A first_segment now0) in
    t_created r = [7] /\ t_recv r = Some 1%N /\ t_verdict r = V_session.
  Proof. vm_compute. auto. Qed.
  Example ex_discover_flip_silent :
    let r := fst (ttcpD [] A (flip_bit 100 first_segment) now0) in
    t_created r = [] /\ t_recv r = None /\ t_verdict r = V_crypto.
  Proof. vm_compute. auto. Qed.
  Example ex_int_ctxt_toy : forall h, ~ tproduced h -> forall u, In u tusers -> topen u h = None.
  Proof. exact toy_open_forged_none. Qed.
End ToyD.
