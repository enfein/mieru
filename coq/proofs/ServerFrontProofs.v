(* Proofs about model/ServerFront.v (C05, and the end-to-end half of C06).
   Everything cryptographic is a Section hypothesis; after End Section the lemmas are closed
   statements quantified over all ciphers / caches that satisfy the hypotheses. *)
From Coq Require Import ZArith List Bool Lia.
From M Require Import gen.Consts model.ServerFront.
Import ListNotations.
Open Scope Z_scope.

Lemma take_cases (n : nat) (l : bytes) :
  (length l < n)%nat /\ take n l = None \/
  (n <= length l)%nat /\ take n l = Some (firstn n l, skipn n l).
Proof. unfold take. destruct (Nat.ltb_spec (length l) n); auto. Qed.

Lemma addr_eqb_eq (a b : addr) : addr_eqb a b = true <-> a = b.
Proof.
  revert b; induction a as [|x a IH]; destruct b as [|y b]; simpl; try (split; congruence).
  rewrite andb_true_iff, N.eqb_eq, IH. split; [intros [-> ->]; reflexivity | intros H; inversion H; auto].
Qed.

Lemma hdr_len_72 : hdr_len = 72%nat.
Proof. reflexivity. Qed.
Lemma sig_len_16 : sig_len = 16%nat.
Proof. reflexivity. Qed.

Lemma flip_byte_neq (bit : nat) (b : N) : flip_byte bit b <> b.
Proof.
  unfold flip_byte. set (x := N.shiftl 1 (N.of_nat bit)). intros H.
  assert (E : N.lxor b (N.lxor b x) = x) by (rewrite <- N.lxor_assoc, N.lxor_nilpotent; apply N.lxor_0_l).
  rewrite H, N.lxor_nilpotent in E. subst x.
  rewrite N.shiftl_1_l in E. symmetry in E. apply N.pow_nonzero in E; [exact E | discriminate].
Qed.

Lemma flip_bit_length (l : bytes) : forall i, length (flip_bit i l) = length l.
Proof.
  induction l as [|b l IH]; intros i; simpl; [reflexivity|].
  destruct (Nat.ltb i 8); simpl; [reflexivity | rewrite IH; reflexivity].
Qed.

Lemma flip_bit_neq (l : bytes) : forall i, (i < 8 * length l)%nat -> flip_bit i l <> l.
Proof.
  induction l as [|b l IH]; intros i Hi; simpl in *; [lia|].
  destruct (Nat.ltb i 8) eqn:E.
  - intros H. inversion H as [H1]. exact (flip_byte_neq i b H1).
  - apply Nat.ltb_ge in E. intros H. inversion H as [H1]. apply (IH (i - 8)%nat); [lia | exact H1].
Qed.

(* opaque so that [cbn] leaves [firstn hdr_len] alone; transparent again for the toy examples, which compute *)
Opaque hdr_len sig_len meta_len.

(* C06: what the replay cache has flagged is refused whether or not it decrypts - for ANY ciphers, candidate lists
   and sessions (keys may have rotated and users changed since the original) *)
Lemma tcp_dup_rejected (key : Type) oh ob lo ld (cd : bytes -> addr -> list key) (sig_of : bytes -> N)
      (rcache : Type) (rc_dup : rcache -> N -> addr -> Z -> bool * rcache) rc src input now :
  (hdr_len <= length input)%nat ->
  fst (rc_dup rc (sig_of (firstn sig_len (firstn hdr_len input))) [] now) = true ->
  let r := fst (tcp_front key oh ob lo ld cd sig_of rcache rc_dup rc src input now) in
  t_out r = [] /\ t_created r = [] /\ t_app r = [] /\ t_verdict r = V_replay.
Proof.
  intros L D. unfold tcp_front. destruct (take_cases hdr_len input) as [[L' _]|[_ ->]]; [lia|].
  destruct (rc_dup rc _ [] now) as [dup rc']. cbn [fst] in D. subst dup.
  destruct (first_open _ _ _ _) as [[k m]|]; cbn; auto.
Qed.

Lemma udp_dup_dropped (key : Type) uo oh ob lo ld (cd : bytes -> addr -> list key) (sig_of : bytes -> N)
      (rcache : Type) (rc_dup : rcache -> N -> addr -> Z -> bool * rcache) (st : ustate key rcache) d src now :
  Nat.ltb (length d) hdr_len = false ->
  fst (rc_dup (u_rc st) (sig_of (firstn sig_len (firstn hdr_len d))) src now) = true ->
  let r := udp_front key uo oh ob lo ld cd sig_of rcache rc_dup st d src now in
  u_out (fst r) = [] /\ u_created (fst r) = [] /\ u_delivered (fst r) = [] /\
  u_sessions (snd r) = u_sessions st /\
  (u_verdict (fst r) = V_replay_drop \/ u_verdict (fst r) = V_undecryptable).
Proof.
  intros L D. cbv zeta. unfold udp_front. rewrite L.
  destruct (rc_dup _ _ _ _) as [dup rc']. cbn [fst] in D. subst dup. unfold udp_core.
  destruct (try_existing _ _ _ _ _) as [[k m]|]; [cbn; auto 10|].
  destruct (first_open _ _ _ _) as [[k m]|]; cbn; auto 10.
Qed.

Section FrontProofs.
  Variable key : Type.
  Variable user_of : key -> N.
  Variable open_hdr : key -> bytes -> option bytes.
  Variable open_body_tcp : key -> bytes -> bytes -> option bytes.
  Variable open_body_udp : key -> bytes -> bytes -> option bytes.
  Variable le_ok : bytes -> bool.
  Variable le_decode : bytes -> bytes -> option bytes.
  Variable cands : bytes -> addr -> list key.
  Variable sig_of : bytes -> N.
  Variable rcache : Type.
  Variable rc_dup : rcache -> N -> addr -> Z -> bool * rcache.

  (* the registered users' keys *)
  Variable keys : list key.
  Hypothesis cands_registered : forall h src k, In k (cands h src) -> In k keys.

  Notation tcpF := (tcp_front key open_hdr open_body_tcp le_ok le_decode cands sig_of rcache rc_dup).
  Notation udpF := (udp_front key user_of open_hdr open_body_udp le_ok le_decode cands sig_of rcache rc_dup).
  Notation udpCore := (udp_core key user_of open_hdr open_body_udp le_ok le_decode cands).
  Notation udpAuth := (udp_authenticated key user_of open_body_udp le_ok le_decode).
  Notation udpStep := (udp_step key user_of open_hdr open_body_udp le_ok le_decode cands sig_of rcache rc_dup).
  Notation udpRun := (udp_run key user_of open_hdr open_body_udp le_ok le_decode cands sig_of rcache rc_dup).
  Notation rcFinal := (rc_final rcache rc_dup).
  Notation evOps := (events_ops sig_of).
  Notation evOp := (event_ops sig_of).

  (* "the sender holds no credential"; with INT-CTXT: every header no holder of a registered key produced *)
  Definition no_key_opens (h : bytes) : Prop := forall k, In k keys -> open_hdr k h = None.

  Lemma first_open_none (ks : list key) (h : bytes) :
    (forall k, In k ks -> open_hdr k h = None) -> first_open key open_hdr ks h = None.
  Proof.
    induction ks as [|k ks IH]; intros H; simpl; [reflexivity|].
    rewrite (H k (or_introl eq_refl)). apply IH. intros k' Hk'. apply H. right; exact Hk'.
  Qed.

  Lemma first_open_some (ks : list key) (h : bytes) (k : key) (m : bytes) :
    first_open key open_hdr ks h = Some (k, m) -> In k ks /\ open_hdr k h = Some m.
  Proof.
    induction ks as [|k0 ks IH]; simpl; [discriminate|].
    destruct (open_hdr k0 h) eqn:E.
    - intros H; inversion H; subst. split; [left; reflexivity | exact E].
    - intros H. destruct (IH H) as [A B]. split; [right; exact A | exact B].
  Qed.

  Lemma discover_none (h : bytes) (src : addr) :
    no_key_opens h -> first_open key open_hdr (cands h src) h = None.
  Proof. intros H. apply first_open_none. intros k Hk. apply H. exact (cands_registered h src k Hk). Qed.

  (* no Write, no session, nothing to Accept, no receive cipher and so no send cipher *)
  Definition tcp_silent (r : tcp_result key) : Prop :=
    t_out r = [] /\ t_created r = [] /\ t_app r = [] /\ t_recv r = None /\
    send_cipher key (t_recv r) = None.

  Lemma tcp_fail_none_silent (v : verdict) : tcp_silent (tcp_fail key None v).
  Proof. repeat split. Qed.

  (* everything one first-segment step can do; [hit] = what discovery returns for the header read, [dup] = the
     replay cache's answer for it *)
  Inductive tcp_outcome (input : bytes) (now : Z) (hit : option (key * bytes)) (dup : bool) (r : tcp_result key) : Prop :=
  | out_blocked : (length input < hdr_len)%nat -> r = tcp_fail key None V_blocked -> tcp_outcome input now hit dup r
  | out_no_key :
      (hdr_len <= length input)%nat -> hit = None ->
      r = tcp_fail key None (if dup then V_replay else V_crypto) -> tcp_outcome input now hit dup r
  | out_refused k m v :
      (hdr_len <= length input)%nat -> hit = Some (k, m) -> (dup = true -> v = V_replay) ->
      r = tcp_fail key (Some k) v -> tcp_outcome input now hit dup r
  | out_session k m p sid plen slen payload :
      (hdr_len <= length input)%nat -> hit = Some (k, m) -> dup = false ->
      parse_meta le_ok now m = M_session p sid plen slen -> p = C05_ProtoOpenSessionRequest -> sid <> 0 ->
      r = mkTcp key [] [sid] [(sid, payload)] (Some k) V_session -> tcp_outcome input now hit dup r.

  Lemma tcp_front_outcome rc src input now :
    tcp_outcome input now
                (first_open key open_hdr (cands (firstn hdr_len input) src) (firstn hdr_len input))
                (fst (rc_dup rc (sig_of (firstn sig_len (firstn hdr_len input))) [] now))
                (fst (tcpF rc src input now)).
  Proof.
    unfold tcp_front.
    destruct (take_cases hdr_len input) as [[L ->]|[L ->]].
    { apply out_blocked; [exact L | reflexivity]. }
    destruct (rc_dup rc _ [] now) as [dup rc']. cbn [fst].
    destruct (first_open _ _ _ _) as [[k m]|].
    2: { apply out_no_key; [exact L | reflexivity | reflexivity]. }
    (* from here on every refusal keeps the receive cipher k *)
    assert (R : forall v (rc1 : rcache), (dup = true -> v = V_replay) ->
                tcp_outcome input now (Some (k, m)) dup (fst (tcp_fail key (Some k) v, rc1))).
    { intros v rc1 D. exact (out_refused _ _ _ _ _ k m v L eq_refl D eq_refl). }
    destruct dup; [apply R; reflexivity|].
    destruct (parse_meta le_ok now m) as [p sid plen slen|p sid un pre plen slen|] eqn:PM; [| |apply R; discriminate].
    - destruct (tcp_read_session _ _ _ _ _ _ _) as [v|payload]; [apply R; discriminate|].
      destruct (p =? C05_ProtoOpenSessionRequest) eqn:EP; cbn [negb]; [|apply R; discriminate].
      destruct (sid =? 0) eqn:ES; [apply R; discriminate|].
      apply Z.eqb_eq in EP. apply Z.eqb_neq in ES.
      exact (out_session _ _ _ _ _ k m p sid plen slen payload L eq_refl eq_refl PM EP ES eq_refl).
    - destruct (tcp_read_data _ _ _ _ _ _ _ _ _ _ _); apply R; discriminate.
  Qed.

  (* a created session answers later, through its own send cipher *)
  Lemma tcp_front_never_writes rc src input now : t_out (fst (tcpF rc src input now)) = [].
  Proof.
    destruct (tcp_front_outcome rc src input now) as [L E|L F E|k0 m v L F D E|k0 m p sid plen slen pl L F D PM EP ES E];
      rewrite E; reflexivity.
  Qed.

  Lemma tcp_recv_from_discovery rc src input now k :
    t_recv (fst (tcpF rc src input now)) = Some k ->
    exists m, first_open key open_hdr (cands (firstn hdr_len input) src) (firstn hdr_len input) = Some (k, m).
  Proof.
    destruct (tcp_front_outcome rc src input now) as [L E|L F E|k0 m v L F D E|k0 m p sid plen slen pl L F D PM EP ES E];
      rewrite E; cbn [tcp_fail t_recv]; intros [= <-]; exists m; exact F.
  Qed.

  Lemma tcp_created_has_recv rc src input now :
    t_created (fst (tcpF rc src input now)) <> [] -> exists k, t_recv (fst (tcpF rc src input now)) = Some k.
  Proof.
    destruct (tcp_front_outcome rc src input now) as [L E|L F E|k0 m v L F D E|k0 m p sid plen slen pl L F D PM EP ES E];
      rewrite E; cbn [tcp_fail t_created t_recv]; [congruence | congruence | congruence | eauto].
  Qed.

  Lemma tcp_created_inv rc src input now :
    t_created (fst (tcpF rc src input now)) <> [] ->
    exists hdr rest k m p sid plen slen,
      take hdr_len input = Some (hdr, rest) /\
      fst (rc_dup rc (sig_of (firstn sig_len hdr)) [] now) = false /\
      In k keys /\ open_hdr k hdr = Some m /\
      parse_meta le_ok now m = M_session p sid plen slen /\
      p = C05_ProtoOpenSessionRequest /\ sid <> 0 /\
      t_verdict (fst (tcpF rc src input now)) = V_session.
  Proof.
    destruct (tcp_front_outcome rc src input now) as [L E|L F E|k0 m v L F D E|k0 m p sid plen slen pl L F D PM EP ES E];
      rewrite E; cbn [tcp_fail t_created]; [congruence | congruence | congruence | intros _].
    destruct (take_cases hdr_len input) as [[L' _]|[_ T]]; [lia|].
    destruct (first_open_some _ _ _ _ F) as [I O].
    exists (firstn hdr_len input), (skipn hdr_len input), k0, m, p, sid, plen, slen.
    repeat split; auto. exact (cands_registered _ _ _ I).
  Qed.

  Lemma tcp_short_blocks rc src input now :
    (length input < hdr_len)%nat ->
    tcpF rc src input now = (tcp_fail key None V_blocked, rc).
  Proof. intros H. unfold tcp_front. destruct (take_cases hdr_len input) as [[_ ->]|[L _]]; [reflexivity | lia]. Qed.

  Lemma tcp_no_key rc src input now :
    no_key_opens (firstn hdr_len input) ->
    fst (tcpF rc src input now) =
      tcp_fail key None
        (if Nat.ltb (length input) hdr_len then V_blocked
         else if fst (rc_dup rc (sig_of (firstn sig_len (firstn hdr_len input))) [] now) then V_replay else V_crypto).
  Proof.
    intros H. pose proof (discover_none _ src H) as NO.
    destruct (tcp_front_outcome rc src input now) as [L E|L F E|k0 m v L F D E|k0 m p sid plen slen pl L F D PM EP ES E];
      [| |congruence|congruence]; rewrite E.
    - apply Nat.ltb_lt in L. rewrite L. reflexivity.
    - apply Nat.ltb_ge in L. rewrite L. reflexivity.
  Qed.

  Lemma tcp_no_key_silent rc src input now :
    no_key_opens (firstn hdr_len input) ->
    let r := fst (tcpF rc src input now) in
    tcp_silent r /\ (t_verdict r = V_blocked \/ t_verdict r = V_crypto \/ t_verdict r = V_replay).
  Proof.
    intros H. cbv zeta. rewrite (tcp_no_key _ _ _ _ H). split; [apply tcp_fail_none_silent|]. cbn [tcp_fail t_verdict].
    destruct (Nat.ltb _ _); [auto|]. destruct (fst _); auto.
  Qed.

  Lemma tcp_no_key_header rc src hdr rest now :
    length hdr = hdr_len -> no_key_opens hdr ->
    fst (tcpF rc src (hdr ++ rest) now) =
      tcp_fail key None (if fst (rc_dup rc (sig_of (firstn sig_len hdr)) [] now) then V_replay else V_crypto).
  Proof.
    intros L H. assert (E : firstn hdr_len (hdr ++ rest) = hdr).
    { rewrite <- L, firstn_app, Nat.sub_diag, firstn_all. apply app_nil_r. }
    rewrite tcp_no_key by (rewrite E; exact H). rewrite E.
    replace (Nat.ltb (length (hdr ++ rest)) hdr_len) with false; [reflexivity|].
    symmetry. apply Nat.ltb_ge. rewrite app_length. lia.
  Qed.

  Definition sess_ok (ss : list (usession key)) : Prop := forall s, In s ss -> In (us_key s) keys.

  Definition udp_silent (r : udp_result key) : Prop := u_out r = [] /\ u_created r = [] /\ u_delivered r = [].

  Lemma try_existing_none (ss : list (usession key)) (h : bytes) (src : addr) :
    sess_ok ss -> no_key_opens h -> try_existing key open_hdr ss h src = None.
  Proof.
    intros OK H. induction ss as [|s ss IH]; simpl; [reflexivity|].
    assert (OK' : sess_ok ss) by (intros x Hx; apply OK; right; exact Hx).
    destruct (addr_eqb (us_addr s) src); [|apply IH; exact OK'].
    rewrite (H (us_key s) (OK s (or_introl eq_refl))). apply IH; exact OK'.
  Qed.

  Lemma try_existing_some (ss : list (usession key)) (h : bytes) (src : addr) k m :
    try_existing key open_hdr ss h src = Some (k, m) ->
    exists s, In s ss /\ us_key s = k /\ us_addr s = src /\ open_hdr k h = Some m.
  Proof.
    induction ss as [|s ss IH]; simpl; [discriminate|].
    destruct (addr_eqb (us_addr s) src) eqn:A.
    - destruct (open_hdr (us_key s) h) eqn:O.
      + intros H; inversion H; subst. exists s. apply addr_eqb_eq in A. auto.
      + intros H. destruct (IH H) as [s' [I R]]. exists s'. split; [right; exact I | exact R].
    - intros H. destruct (IH H) as [s' [I R]]. exists s'. split; [right; exact I | exact R].
  Qed.

  Lemma udp_core_no_key ss dup d src now :
    sess_ok ss -> no_key_opens (firstn hdr_len d) ->
    udpCore ss dup d src now = (udp_drop key V_undecryptable, ss).
  Proof.
    intros OK H. unfold udp_core.
    rewrite (try_existing_none ss _ src OK H). rewrite (discover_none _ src H). reflexivity.
  Qed.

  Lemma udp_authenticated_sess_ok ss k fresh m hdr rest src now :
    sess_ok ss -> In k keys -> sess_ok (snd (udpAuth ss k fresh m hdr rest src now)).
  Proof.
    intros OK Hk. unfold udp_authenticated.
    destruct (parse_meta le_ok now m) as [p sid plen slen|p sid un pre plen slen|]; [| |exact OK].
    - destruct (udp_parse_session _ _ _ _ _ _ _); [|exact OK].
      destruct (fresh && negb (direction_ok p)); [exact OK|].
      destruct (fresh && (p =? C05_ProtoOpenSessionRequest) && (sid =? 0)); [exact OK|].
      destruct (p =? C05_ProtoOpenSessionRequest).
      + destruct (sid =? 0); [exact OK|]. destruct (find_session _ _ _); [exact OK|]. simpl.
        intros s Hs. apply in_app_or in Hs. destruct Hs as [Hs|[<-|[]]]; [apply OK; exact Hs | exact Hk].
      + destruct (p =? C05_ProtoOpenSessionResponse); [exact OK|].
        destruct (find_session _ _ _) as [s|]; [|exact OK]. destruct (owns _ _ _ _); exact OK.
    - destruct (udp_parse_data _ _ _ _ _ _ _ _ _ _ _ _); [|exact OK].
      destruct (fresh && negb (direction_ok p)); [exact OK|].
      destruct (find_session _ _ _) as [s|]; [|exact OK]. destruct (owns _ _ _ _); exact OK.
  Qed.

  Lemma udp_core_sess_ok ss dup d src now : sess_ok ss -> sess_ok (snd (udpCore ss dup d src now)).
  Proof.
    intros OK. unfold udp_core.
    destruct (try_existing _ _ _ _ _) as [[k m]|] eqn:T.
    - destruct dup; [exact OK|]. apply try_existing_some in T. destruct T as [s [I [K _]]].
      apply udp_authenticated_sess_ok; [exact OK | rewrite <- K; apply OK; exact I].
    - destruct (first_open _ _ _ _) as [[k m]|] eqn:F; [|exact OK].
      destruct dup; [exact OK|]. apply first_open_some in F. destruct F as [F1 _].
      apply udp_authenticated_sess_ok; [exact OK | eapply cands_registered; eauto].
  Qed.

  (* udp_front with projections in place of its two destructuring [let]s *)
  Lemma udp_front_eq (st : ustate key rcache) d src now :
    udpF st d src now =
      if Nat.ltb (length d) hdr_len then (udp_drop key V_short, st)
      else let c := rc_dup (u_rc st) (sig_of (firstn sig_len (firstn hdr_len d))) src now in
           let r := udpCore (u_sessions st) (fst c) d src now in
           (fst r, mkU key rcache (snd c) (snd r)).
  Proof.
    unfold udp_front. destruct (Nat.ltb (length d) hdr_len); [reflexivity|].
    destruct (rc_dup _ _ _ _) as [dup rc']. cbn [fst snd]. destruct (udp_core _ _ _ _ _ _ _ _ _ _ _ _). reflexivity.
  Qed.

  Lemma udp_short_dropped (st : ustate key rcache) d src now :
    (length d < hdr_len)%nat -> udpF st d src now = (udp_drop key V_short, st).
  Proof. intros H. unfold udp_front. apply Nat.ltb_lt in H. rewrite H. reflexivity. Qed.

  Lemma udp_step_sess_ok st e : sess_ok (u_sessions st) -> sess_ok (u_sessions (snd (udpStep st e))).
  Proof.
    intros OK. destruct e as [d src now|ids]; cbn [udp_step snd u_sessions].
    - rewrite udp_front_eq. destruct (Nat.ltb (length d) hdr_len); [exact OK|]. apply udp_core_sess_ok; exact OK.
    - intros s Hs. unfold remove_sessions in Hs. apply filter_In in Hs. apply OK. tauto.
  Qed.

  Lemma udp_no_key_silent (st : ustate key rcache) d src now :
    sess_ok (u_sessions st) -> no_key_opens (firstn hdr_len d) ->
    let r := udpF st d src now in
    udp_silent (fst r) /\ u_sessions (snd r) = u_sessions st /\
    (u_verdict (fst r) = V_short \/ u_verdict (fst r) = V_undecryptable).
  Proof.
    intros OK H. cbv zeta. rewrite udp_front_eq. unfold udp_silent.
    destruct (Nat.ltb (length d) hdr_len).
    - cbn. auto 10.
    - rewrite (udp_core_no_key _ _ d src now OK H). cbn. auto 10.
  Qed.

  Lemma udp_accept_inv (st : ustate key rcache) d src now :
    (let r := fst (udpF st d src now) in u_created r <> [] \/ u_delivered r <> [] \/ u_out r <> []) ->
    Nat.ltb (length d) hdr_len = false /\
    fst (rc_dup (u_rc st) (sig_of (firstn sig_len (firstn hdr_len d))) src now) = false.
  Proof.
    cbv zeta. intros ACC.
    destruct (Nat.ltb (length d) hdr_len) eqn:L.
    { apply Nat.ltb_lt in L. rewrite (udp_short_dropped st d src now L) in ACC. cbn in ACC. intuition congruence. }
    split; [reflexivity|]. destruct (fst (rc_dup _ _ _ _)) eqn:D; [exfalso|reflexivity].
    destruct (udp_dup_dropped key user_of open_hdr open_body_udp le_ok le_decode cands sig_of rcache rc_dup st d src now L D)
      as [A [B [C _]]].
    rewrite A, B, C in ACC. intuition congruence.
  Qed.

  (* [P]: a reading of "the sender holds no credential" - [fun h => ~ produced h], or foreign_header of
     proofs/UserTableProofs.v; the lemmas below take [forall h, P h -> no_key_opens h] as a premise *)
  Definition probe_with (P : bytes -> Prop) (e : event) : Prop :=
    match e with
    | Dgram d src now => P (firstn hdr_len d)
    | Clean _ => False
    end.

  Lemma rc_final_app (c : rcache) (h1 h2 : list rc_op) : rcFinal c (h1 ++ h2) = rcFinal (rcFinal c h1) h2.
  Proof. revert c; induction h1 as [|o h1 IH]; intros c; simpl; [reflexivity | apply IH]. Qed.

  Lemma udp_step_cache st e : u_rc (snd (udpStep st e)) = rcFinal (u_rc st) (evOp e).
  Proof.
    destruct e as [d src now|ids]; [|reflexivity]. cbn [udp_step event_ops]. rewrite udp_front_eq.
    destruct (Nat.ltb (length d) hdr_len); reflexivity.
  Qed.

  Lemma udp_run_cons st e evs :
    udpRun st (e :: evs) = ((e, fst (udpStep st e)) :: fst (udpRun (snd (udpStep st e)) evs),
                            snd (udpRun (snd (udpStep st e)) evs)).
  Proof. cbn [udp_run]. destruct (udpStep st e) as [r st1]. cbn [fst snd]. destruct (udpRun st1 evs). reflexivity. Qed.

  Lemma udp_run_cache evs : forall st, u_rc (snd (udpRun st evs)) = rcFinal (u_rc st) (evOps evs).
  Proof.
    induction evs as [|e evs IH]; intros st; [reflexivity|].
    rewrite udp_run_cons. cbn [snd events_ops flat_map]. fold (evOps evs).
    rewrite IH, udp_step_cache, rc_final_app. reflexivity.
  Qed.

  Lemma udp_run_no_key_silent (P : bytes -> Prop) (probe : event -> bool) evs :
    (forall h, P h -> no_key_opens h) -> forall st,
    sess_ok (u_sessions st) ->
    (forall e, In e evs -> probe e = true -> probe_with P e) ->
    forall e r, In (e, r) (fst (udpRun st evs)) -> probe e = true ->
      udp_silent r /\ (u_verdict r = V_short \/ u_verdict r = V_undecryptable).
  Proof.
    intros NK. induction evs as [|e0 evs IH]; intros st OK HP e r Hin Hp; [contradiction|].
    rewrite udp_run_cons in Hin. destruct Hin as [[= <- <-]|Hin].
    - pose proof (HP e0 (or_introl eq_refl) Hp) as PK. destruct e0 as [d src now|ids]; [|contradiction].
      destruct (udp_no_key_silent st d src now OK (NK _ PK)) as [S [_ V]]. exact (conj S V).
    - apply (IH (snd (udpStep st e0))) with (e := e); auto.
      + apply udp_step_sess_ok. exact OK.
      + intros e' He'. apply HP. right; exact He'.
  Qed.

  (* [rc0]: the cache as constructed at process start; [rc_nfp] is what proofs/ReplayProofs.v
     replay_no_false_positive states of model/Replay.v *)
  Section NonInterference.
  Variable rc0 : rcache.
  Hypothesis rc_nfp : forall h s t now, fst (rc_dup (rcFinal rc0 h) s t now) = true ->
    exists t' now', In (s, t', now') h /\ (t' = [] \/ t = [] \/ t' <> t).

  (* every signature of a non-probe datagram is only ever presented from that datagram's own (non-empty)
     source address, in the whole history [h] *)
  Definition owned (probe : event -> bool) (h : list rc_op) (evs : list event) : Prop :=
    forall e o o', In e evs -> probe e = false -> In o (evOp e) -> In o' h ->
      fst (fst o') = fst (fst o) -> snd (fst o') = snd (fst o) /\ snd (fst o) <> [].

  (* [h'] will be the cache history of either run of the non-interference lemma; both lie within [h] *)
  Lemma owned_not_dup probe h evs d src now :
    owned probe h evs -> In (Dgram d src now) evs -> probe (Dgram d src now) = false ->
    forall h', incl h' h -> Nat.ltb (length d) hdr_len = false ->
    fst (rc_dup (rcFinal rc0 h') (sig_of (firstn sig_len (firstn hdr_len d))) src now) = false.
  Proof.
    intros OW Hin Hp h' Hincl HL.
    destruct (fst (rc_dup _ _ _ _)) eqn:D; [|reflexivity]. exfalso.
    apply rc_nfp in D. destruct D as [t' [now' [I C]]].
    assert (O : In (sig_of (firstn sig_len (firstn hdr_len d)), src, now) (evOp (Dgram d src now))).
    { unfold event_ops. rewrite HL. left; reflexivity. }
    destruct (OW _ _ _ Hin Hp O (Hincl _ I) eq_refl) as [A B]. simpl in A, B.
    destruct C as [C|[C|C]]; congruence.
  Qed.

  (* puts the state after a step back into the form [mkU (rcFinal rc0 _) _] of the induction hypothesis below *)
  Lemma udp_step_hist h ss e :
    snd (udpStep (mkU key rcache (rcFinal rc0 h) ss) e) =
      mkU key rcache (rcFinal rc0 (h ++ evOp e)) (u_sessions (snd (udpStep (mkU key rcache (rcFinal rc0 h) ss) e))).
  Proof.
    pose proof (udp_step_cache (mkU key rcache (rcFinal rc0 h) ss) e) as C. cbn [u_rc] in C.
    rewrite rc_final_app, <- C. destruct (snd _); reflexivity.
  Qed.

  Lemma udp_step_same probe h evs e hA hB ss :
    owned probe h evs -> In e evs -> probe e = false -> incl hA h -> incl hB h ->
    fst (udpStep (mkU key rcache (rcFinal rc0 hA) ss) e) = fst (udpStep (mkU key rcache (rcFinal rc0 hB) ss) e) /\
    u_sessions (snd (udpStep (mkU key rcache (rcFinal rc0 hA) ss) e))
      = u_sessions (snd (udpStep (mkU key rcache (rcFinal rc0 hB) ss) e)).
  Proof.
    intros OW I P IA IB. destruct e as [d src now|ids]; [|split; reflexivity].
    cbn [udp_step]. rewrite !udp_front_eq. cbn [u_rc u_sessions].
    destruct (Nat.ltb (length d) hdr_len) eqn:HL; [split; reflexivity|].
    rewrite (owned_not_dup probe h evs d src now OW I P hA IA HL), (owned_not_dup probe h evs d src now OW I P hB IB HL).
    split; reflexivity.
  Qed.

  (* two cache histories, hB within hA: the run without the probes has seen less *)
  Lemma c05_noninterference_gen (P : bytes -> Prop) (probe : event -> bool) evs :
    (forall h, P h -> no_key_opens h) -> forall hA hB ss,
    sess_ok ss -> incl hB hA ->
    (forall e, In e evs -> probe e = true -> probe_with P e) ->
    owned probe (hA ++ evOps evs) evs ->
    filter (fun er => negb (probe (fst er))) (fst (udpRun (mkU key rcache (rcFinal rc0 hA) ss) evs))
      = fst (udpRun (mkU key rcache (rcFinal rc0 hB) ss) (filter (fun e => negb (probe e)) evs)) /\
    u_sessions (snd (udpRun (mkU key rcache (rcFinal rc0 hA) ss) evs))
      = u_sessions (snd (udpRun (mkU key rcache (rcFinal rc0 hB) ss) (filter (fun e => negb (probe e)) evs))).
  Proof.
    intros NK. induction evs as [|e evs IH]; intros hA hB ss OK Hincl HP OW; [split; reflexivity|].
    assert (OWtail : owned probe ((hA ++ evOp e) ++ evOps evs) evs).
    { intros e1 o o' I1 P1 I2 I3 E. rewrite <- app_assoc in I3.
      apply (OW e1 o o'); auto. right; exact I1. }
    assert (HPtail : forall e', In e' evs -> probe e' = true -> probe_with P e')
      by (intros e' I; apply HP; right; exact I).
    rewrite udp_run_cons, (udp_step_hist hA). cbn [filter fst snd].
    destruct (probe e) eqn:Pe; cbn [negb].
    - (* a probe: skipped in the second run; it changes nothing but the cache *)
      pose proof (HP e (or_introl eq_refl) Pe) as PK. destruct e as [d src now|ids]; [|contradiction].
      destruct (udp_no_key_silent (mkU key rcache (rcFinal rc0 hA) ss) d src now OK (NK _ PK)) as [_ [S _]].
      cbn [udp_step]. rewrite S. apply IH; auto. apply incl_appl. exact Hincl.
    - (* not a probe: both runs take the same step *)
      rewrite udp_run_cons, (udp_step_hist hB). cbn [fst snd].
      destruct (udp_step_same probe _ _ e hA hB ss OW (or_introl eq_refl) Pe (incl_appl _ (incl_refl _)) (incl_appl _ Hincl))
        as [ER ES].
      rewrite <- ES, <- ER.
      destruct (IH (hA ++ evOp e) (hB ++ evOp e) (u_sessions (snd (udpStep (mkU key rcache (rcFinal rc0 hA) ss) e))))
        as [G1 G2]; auto.
      + apply (udp_step_sess_ok (mkU key rcache (rcFinal rc0 hA) ss) e OK).
      + apply incl_app_app; [exact Hincl | apply incl_refl].
      + rewrite G1, G2. split; reflexivity.
  Qed.
  End NonInterference.

  (* C06.  [rc_within]: the side condition of the no-miss property (for model/Replay.v: non-decreasing times from
     t0, t1 < t0 + interval, fewer than capacity other distinct signatures in between) *)
  Section Replays.
  Variable rc0 : rcache.
  Variable rc_within : Z -> N -> list rc_op -> addr -> Z -> Prop.
  (* no miss within bounds (proofs/ReplayProofs.v replay_no_miss with tag_rule_true) *)
  Hypothesis rc_no_miss : forall h1 x ta t0 h2 tq t1,
    fst (rc_dup (rcFinal rc0 h1) x ta t0) = false ->
    rc_within t0 x h2 tq t1 ->
    (ta = [] \/ tq = [] \/ ta <> tq) ->
    fst (rc_dup (rcFinal rc0 (h1 ++ (x, ta, t0) :: h2)) x tq t1) = true.

  (* [key' oh ob lo ld cd] (UDP also [uo], [ss1]): ciphers, discovery and sessions at the time of the replay, unrelated
     to the Section's, which served the original; that is why tcp_dup_rejected / udp_dup_dropped stand outside it *)
  Lemma c06_replay_rejected_tcp
        (key' : Type) oh ob lo ld (cd : bytes -> addr -> list key')
        (h1 : list rc_op) (src0 : addr) (input0 : bytes) (t0 : Z)
        (h2 : list rc_op) (src1 : addr) (input1 : bytes) (t1 : Z) :
    t_created (fst (tcpF (rcFinal rc0 h1) src0 input0 t0)) <> [] ->
    firstn hdr_len input1 = firstn hdr_len input0 ->
    let x := sig_of (firstn sig_len (firstn hdr_len input0)) in
    rc_within t0 x h2 [] t1 ->
    let r := fst (tcp_front key' oh ob lo ld cd sig_of rcache rc_dup
                            (rcFinal rc0 (h1 ++ (x, [], t0) :: h2)) src1 input1 t1) in
    t_out r = [] /\ t_created r = [] /\ t_app r = [] /\ t_verdict r = V_replay.
  Proof.
    intros ACC SAME x W.
    apply tcp_created_inv in ACC.
    destruct ACC as [hdr [rest [k [m [p [sid [plen [slen [T [D _]]]]]]]]]].
    destruct (take_cases hdr_len input0) as [[_ E]|[L0 E]]; rewrite E in T; [discriminate|].
    injection T as <- _. fold x in D.
    apply tcp_dup_rejected.
    - pose proof (f_equal (@length N) SAME) as E1. rewrite !firstn_length in E1. lia.
    - rewrite SAME. apply rc_no_miss; auto.
  Qed.

  Lemma c06_replay_rejected_udp
        (key' : Type) uo oh ob lo ld (cd : bytes -> addr -> list key')
        (h1 : list rc_op) (ss0 : list (usession key)) (d : bytes) (srcA : addr) (t0 : Z)
        (h2 : list rc_op) (ss1 : list (usession key')) (srcB : addr) (t1 : Z) :
    (let r0 := fst (udpF (mkU key rcache (rcFinal rc0 h1) ss0) d srcA t0) in
     u_created r0 <> [] \/ u_delivered r0 <> [] \/ u_out r0 <> []) ->
    srcB <> srcA ->
    let x := sig_of (firstn sig_len (firstn hdr_len d)) in
    rc_within t0 x h2 srcB t1 ->
    let st1 := mkU key' rcache (rcFinal rc0 (h1 ++ (x, srcA, t0) :: h2)) ss1 in
    let r := udp_front key' uo oh ob lo ld cd sig_of rcache rc_dup st1 d srcB t1 in
    u_out (fst r) = [] /\ u_created (fst r) = [] /\ u_delivered (fst r) = [] /\
    u_sessions (snd r) = ss1 /\
    (u_verdict (fst r) = V_replay_drop \/ u_verdict (fst r) = V_undecryptable).
  Proof.
    intros ACC NE x W st1.
    apply udp_accept_inv in ACC. cbn [u_rc] in ACC. destruct ACC as [L D].
    apply (udp_dup_dropped key' uo oh ob lo ld cd sig_of rcache rc_dup st1 d srcB t1 L).
    apply rc_no_miss; auto.
  Qed.
  End Replays.

End FrontProofs.

Transparent hdr_len sig_len meta_len.

(* A toy instance: the hypotheses are satisfiable and the model is not silent by construction. *)
Module Toy.
  Definition tkey := N.
  Definition tkeys : list tkey := [1%N; 2%N].
  Definition sumb (l : bytes) : N := N.modulo (fold_left N.add l 0%N) 256.
  (* header = nonce(24) || metadata(32) || [key+100; checksum of the 56 bytes] || 14 zero bytes *)
  Definition mk_hdr (k : tkey) (nonce m : bytes) : bytes :=
    nonce ++ m ++ [N.add k 100; sumb (nonce ++ m)] ++ repeat 0%N 14.
  Definition topen (k : tkey) (h : bytes) : option bytes :=
    if Nat.eqb (length h) 72 && N.eqb (nth 56 h 0%N) (N.add k 100) && N.eqb (nth 57 h 0%N) (sumb (firstn 56 h))
       && forallb (N.eqb 0) (skipn 58 h)
    then Some (firstn 32 (skipn 24 h)) else None.
  Definition tbody (k : tkey) (h box : bytes) : option bytes :=
    if Nat.ltb (length box) 16 then None else Some (firstn (length box - 16) box).
  Definition tcands (h : bytes) (src : addr) : list tkey := tkeys.
  Definition tsig (b : bytes) : N := fold_left (fun a x => N.add (N.mul a 256) x) b 0%N.
  Definition tproduced (h : bytes) : Prop := exists k, In k tkeys /\ topen k h <> None.

  (* a remember-everything cache: the first tag of a signature is kept (the tag rule of IsDuplicate) *)
  Definition tcache := list (N * addr).
  Fixpoint tlookup (s : N) (c : tcache) : option addr :=
    match c with [] => None | (k, v) :: c' => if N.eqb k s then Some v else tlookup s c' end.
  Definition trule (e t : addr) : bool :=
    match e, t with [], _ => true | _, [] => true | _, _ => negb (addr_eqb e t) end.
  Definition tdup (c : tcache) (s : N) (t : addr) (now : Z) : bool * tcache :=
    match tlookup s c with Some e => (trule e t, c) | None => (false, (s, t) :: c) end.

  Lemma toy_cands_registered : forall h src k, In k (tcands h src) -> In k tkeys.
  Proof. intros h src k H; exact H. Qed.
  Lemma toy_open_forged_none : forall h, ~ tproduced h -> forall k, In k tkeys -> topen k h = None.
  Proof.
    intros h NP k Hk. destruct (topen k h) eqn:E; [|reflexivity].
    exfalso. apply NP. exists k. split; [exact Hk | rewrite E; discriminate].
  Qed.

  Lemma trule_true e t : trule e t = true <-> (e = [] \/ t = [] \/ e <> t).
  Proof.
    destruct e as [|a e]; [simpl; tauto|]. destruct t as [|b t]; [simpl; split; auto|].
    unfold trule. rewrite negb_true_iff. split.
    - intros H. right; right. intros E. apply addr_eqb_eq in E. congruence.
    - intros [H|[H|H]]; try discriminate. destruct (addr_eqb (a :: e) (b :: t)) eqn:E; [|reflexivity].
      apply addr_eqb_eq in E. contradiction.
  Qed.

  Notation tfinal := (rc_final tcache tdup).

  Lemma tdup_fst c s t now : fst (tdup c s t now) = match tlookup s c with Some e => trule e t | None => false end.
  Proof. unfold tdup. destruct (tlookup s c); reflexivity. Qed.
  (* one presentation: a signature the cache does not hold is entered with its tag *)
  Lemma tfinal_cons c s t now h :
    tfinal c ((s, t, now) :: h) = tfinal (match tlookup s c with Some e => c | None => (s, t) :: c end) h.
  Proof. cbn [rc_final]. unfold rc_step, tdup. cbn [fst snd]. destruct (tlookup s c); reflexivity. Qed.

  Lemma tfinal_lookup_in h : forall c s e,
    tlookup s (tfinal c h) = Some e -> tlookup s c = Some e \/ exists now, In (s, e, now) h.
  Proof.
    induction h as [|[[s0 t0] n0] h IH]; intros c s e H; [left; exact H|].
    rewrite tfinal_cons in H.
    destruct (tlookup s0 c) eqn:L.
    - destruct (IH _ _ _ H) as [A|[now A]]; [left; exact A | right; exists now; right; exact A].
    - destruct (IH _ _ _ H) as [A|[now A]]; [|right; exists now; right; exact A].
      cbn [tlookup] in A. destruct (N.eqb s0 s) eqn:E; [|left; exact A].
      apply N.eqb_eq in E. subst s0. inversion A; subst. right. exists n0. left; reflexivity.
  Qed.

  (* the toy cache satisfies [rc_nfp] ... *)
  Lemma toy_nfp : forall h s t now, fst (tdup (tfinal [] h) s t now) = true ->
    exists t' now', In (s, t', now') h /\ (t' = [] \/ t = [] \/ t' <> t).
  Proof.
    intros h s t now H. rewrite tdup_fst in H. destruct (tlookup s (tfinal [] h)) eqn:L; [|discriminate].
    apply tfinal_lookup_in in L. destruct L as [L|[n L]]; [discriminate|].
    exists a, n. split; [exact L | apply trule_true; exact H].
  Qed.

  Lemma tfinal_lookup_keep h : forall c s e, tlookup s c = Some e -> tlookup s (tfinal c h) = Some e.
  Proof.
    induction h as [|[[s0 t0] n0] h IH]; intros c s e H; [exact H|].
    rewrite tfinal_cons. apply IH.
    destruct (tlookup s0 c) eqn:L; [exact H|].
    cbn [tlookup]. destruct (N.eqb s0 s) eqn:E; [|exact H]. apply N.eqb_eq in E. subst. congruence.
  Qed.

  (* ... and [rc_no_miss], with [rc_within] := True: it never forgets *)
  Lemma toy_no_miss : forall h1 x ta t0 h2 tq t1,
    fst (tdup (tfinal [] h1) x ta t0) = false -> True ->
    (ta = [] \/ tq = [] \/ ta <> tq) ->
    fst (tdup (tfinal [] (h1 ++ (x, ta, t0) :: h2)) x tq t1) = true.
  Proof.
    intros h1 x ta t0 h2 tq t1 H _ C. rewrite tdup_fst in H. rewrite tdup_fst.
    rewrite rc_final_app, tfinal_cons.
    destruct (tlookup x (tfinal [] h1)) as [e|] eqn:L1.
    - (* the first presentation was let through because e = ta (same non-empty tag); the entry is still e *)
      rewrite (tfinal_lookup_keep h2 _ x e L1). apply trule_true.
      assert (E : e = ta).
      { destruct e as [|a e]; [simpl in H; discriminate|]. destruct ta as [|b ta]; [simpl in H; discriminate|].
        unfold trule in H. apply negb_false_iff in H. apply addr_eqb_eq in H. exact H. }
      subst e. exact C.
    - rewrite (tfinal_lookup_keep h2 _ x ta); [apply trule_true; exact C|].
      cbn [tlookup]. rewrite N.eqb_refl. reflexivity.
  Qed.

  (* concrete traffic: now = 2009-11-10 23:00:00 UTC, minute 20964900 = 0x013FE624 *)
  Definition now0 : Z := 1257894000 * 1000000000.
  Definition ts0 : bytes := [1; 63; 230; 36]%N.
  (* openSessionRequest, session id 7, payload 3 bytes, no padding *)
  Definition meta_open : bytes := [2; 0]%N ++ ts0 ++ [0; 0; 0; 7; 0; 0; 0; 0; 0; 0; 3; 0]%N ++ repeat 0%N 14.
  (* dataClientToServer for session 9 (unknown), no payload *)
  Definition meta_data : bytes := [6; 0]%N ++ ts0 ++ [0; 0; 0; 9; 0; 0; 0; 5; 0; 0; 0; 4; 1; 0; 0; 0; 0; 0; 0]%N ++ repeat 0%N 7.
  Definition nonce1 : bytes := map N.of_nat (seq 1 24).
  Definition nonce2 : bytes := map N.of_nat (seq 101 24).
  Definition hdr_open : bytes := mk_hdr 1%N nonce1 meta_open.
  Definition first_segment : bytes := hdr_open ++ [65; 66; 67]%N ++ repeat 9%N 16.   (* payload box: 3 + 16 *)
  Definition dgram_data : bytes := mk_hdr 1%N nonce2 meta_data.
  Definition A : addr := [49; 48]%N.
  Definition B : addr := [54; 54]%N.

  Notation ttcp := (tcp_front tkey topen tbody (fun _ => true) (fun _ w => Some w) tcands tsig tcache tdup).
  Notation tudp := (udp_run tkey (fun k => k) topen tbody (fun _ => true) (fun _ w => Some w) tcands tsig tcache tdup).

  Example ex_tcp_genuine_accepted :
    let r := fst (ttcp [] A first_segment now0) in
    t_created r = [7] /\ t_app r = [(7, [65; 66; 67]%N)] /\ t_verdict r = V_session /\ t_recv r = Some 1%N.
  Proof. vm_compute. auto. Qed.

  Example ex_flips_not_produced :
    forall i, In i (seq 0 576) -> ~ tproduced (flip_bit i hdr_open).
  Proof.
    (* the flipped header is bound by a [let]: the kernel evaluates it once, not once for every key *)
    assert (H : forallb (fun i => let h := flip_bit i hdr_open in
                                  forallb (fun k => match topen k h with None => true | _ => false end) tkeys)
                        (seq 0 576) = true) by (vm_compute; reflexivity).
    rewrite forallb_forall in H. intros i Hi [k [Hk O]]. specialize (H i Hi). cbv zeta in H.
    rewrite forallb_forall in H. specialize (H k Hk).
    destruct (topen k (flip_bit i hdr_open)); [discriminate | apply O; reflexivity].
  Qed.

  (* from ex_flips_not_produced; the empty cache has not seen the header, hence CRYPTO_ERROR *)
  Example ex_tcp_all_flips_silent :
    forallb (fun i => let r := fst (ttcp [] A (flip_bit i hdr_open ++ [65; 66; 67]%N ++ repeat 9%N 16) now0) in
                      match t_out r, t_created r, t_app r, t_recv r, t_verdict r with
                      | [], [], [], None, V_crypto => true | _, _, _, _, _ => false end) (seq 0 576) = true.
  Proof.
    apply forallb_forall. intros i Hi. cbv zeta.
    rewrite (tcp_no_key_header tkey topen tbody (fun _ => true) (fun _ w => Some w) tcands tsig tcache tdup
                               tkeys toy_cands_registered).
    - reflexivity.
    - rewrite flip_bit_length. reflexivity.
    - intros k Hk. apply toy_open_forged_none; [apply ex_flips_not_produced; exact Hi | exact Hk].
  Qed.

  Example ex_tcp_all_prefixes_blocked :
    forallb (fun n => match ttcp [] A (firstn n first_segment) now0 with
                      | (r, []) => match t_out r, t_created r, t_app r, t_recv r, t_verdict r with
                                   | [], [], [], None, V_blocked => true | _, _, _, _, _ => false end
                      | _ => false end) (seq 0 72) = true.
  Proof. vm_compute. reflexivity. Qed.

  Example ex_tcp_replay_rejected :
    let c1 := snd (ttcp [] A first_segment now0) in
    forallb (fun inp => let r := fst (ttcp c1 B inp (now0 + 30 * NS)) in
                        match t_out r, t_created r, t_app r, t_verdict r with
                        | [], [], [], V_replay => true | _, _, _, _ => false end)
            [first_segment; first_segment ++ [1; 2; 3]%N; firstn 72 first_segment; firstn 80 first_segment] = true.
  Proof. vm_compute. reflexivity. Qed.

  (* UDP history: A opens session 7; B probes with garbage; "A" (spoofed) sends a bit-flipped copy; B replays A's
     datagram; A sends data for the unknown session 9 and gets a close request; a short datagram *)
  Definition history : list event :=
    [ Dgram first_segment A now0;
      Dgram (repeat 170%N 200) B now0;
      Dgram (flip_bit 300 first_segment) A now0;
      Dgram first_segment B (now0 + NS);
      Dgram dgram_data A (now0 + NS);
      Dgram (repeat 1%N 71) B (now0 + NS) ].
  Example ex_udp_history :
    map (fun er => (u_verdict (snd er), length (u_out (snd er)), length (u_created (snd er)), length (u_delivered (snd er))))
        (fst (tudp (mkU tkey tcache [] []) history))
    = [ (V_session, 0, 1, 1); (V_undecryptable, 0, 0, 0); (V_undecryptable, 0, 0, 0);
        (V_replay_drop, 0, 0, 0); (V_close_reply, 1, 0, 0); (V_short, 0, 0, 0) ]%nat.
  Proof. vm_compute. reflexivity. Qed.

  (* the conclusion of the non-interference lemma, computed on verdicts for history2 (its probes: events 2, 3, 5) *)
  Definition is_probe (e : event) : bool :=
    match e with
    | Dgram d src now => match first_open tkey topen tkeys (firstn 72 d) with None => true | Some _ => false end
    | Clean _ => false
    end.
  Definition history2 : list event :=
    [ Dgram first_segment A now0; Dgram (repeat 170%N 200) B now0; Dgram (flip_bit 300 first_segment) A now0;
      Dgram dgram_data A (now0 + NS); Dgram (repeat 1%N 71) B (now0 + NS) ].
  Example ex_noninterference_computed :
    let st := mkU tkey tcache [] [] in
    map (fun er => u_verdict (snd er)) (filter (fun er => negb (is_probe (fst er))) (fst (tudp st history2)))
    = map (fun er => u_verdict (snd er)) (fst (tudp st (filter (fun e => negb (is_probe e)) history2)))
    /\ length (filter is_probe history2) = 3%nat.
  Proof. vm_compute. auto. Qed.
End Toy.
