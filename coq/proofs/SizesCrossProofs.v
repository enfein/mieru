(* C14 — ties between model/Sizes.v and the neighbouring models:
   TcpStream.v (C01: fragmenting plan of Session.Write on a stream), Wire.v (C09: datagram layout),
   UdpProto.v (C02/C13: what a UDP endpoint may emit). *)
From Coq Require Import ZArith Lia List Bool.
From M Require Import gen.Consts model.Sizes proofs.SizesProofs.
From M Require model.TcpStream model.Wire proofs.WireProofs model.UdpProto.
Import ListNotations.
Open Scope Z_scope.

(* the hypothesis on KDataLE makes a segment with a body put a byte on the wire: Wire seals a payload box only for a
   non-empty payload, Sizes counts the box whenever the body is non-empty.  Headers: 72 = 32 + 24 + 16, tag 16. *)
Lemma dgram_len_agrees_with_wire : forall (seal : list N -> list N -> list N -> list N),
  (forall k n p, length (seal k n p) = (length p + N.to_nat Wire.TagOverhead)%nat) ->
  forall key nonce meta pad1 payload pad2 (s : seg) p1 p2,
  N.of_nat (length nonce) = Wire.NonceSize -> N.of_nat (length meta) = Wire.MetadataLength ->
  Z.of_nat (length pad1) = (if is_session (s_kind s) then 0 else p1) ->
  Z.of_nat (length pad2) = p2 ->
  Z.of_nat (length payload) =
    (if s_body s >? 0 then match s_kind s with KDataLE => s_plen s | _ => s_body s end else 0) ->
  (s_kind s = KDataLE -> 0 < s_body s -> 0 < s_plen s) ->
  Z.of_nat (length (Wire.udp_datagram seal key nonce meta pad1 payload pad2 (fun x => x))) = dgram_len s p1 p2.
Proof.
  intros seal Hseal key nonce meta pad1 payload pad2 s p1 p2 Hn Hm H1 H2 Hp Hle.
  rewrite (WireProofs.udp_datagram_length seal Hseal key nonce meta pad1 payload pad2 Hn Hm).
  change (N.to_nat (Z.to_N C09_packetNonHeaderPosition)) with 72%nat.
  change (N.to_nat Wire.TagOverhead) with 16%nat.
  unfold dgram_len, header_len, wire_payload.
  change (C14_MetadataLength + C14_NonceSize + C14_TagOverhead) with 72. change C14_TagOverhead with 16.
  assert (Hw : 0 < s_body s -> 0 < match s_kind s with KDataLE => s_plen s | _ => s_body s end).
  { intros Hb. destruct (s_kind s); try exact Hb. exact (Hle eq_refl Hb). }
  set (w := match s_kind s with KDataLE => s_plen s | _ => s_body s end) in *.
  (* [if is_session ...] is the same term on both sides; a body goes with a non-empty payload (Hw, Hp) *)
  destruct payload; cbn [length] in *; destruct (Z.gtb_spec (s_body s) 0); lia.
Qed.

Lemma write_kinds : forall is_client first mtu t mode fs n s,
  frag_facts mtu t mode fs -> 0 <= n ->
  In s (fst (fst (write is_client first mtu t mode n))) ->
  s_kind s = KData \/ s_kind s = KDataLE \/ (s_kind s = KOpenReq /\ is_client = true).
Proof.
  intros is_client first mtu t mode fs n s F Hn Hin.
  destruct is_client.
  - destruct (write_spec true first mtu t mode fs n F Hn) as (segs & Hw & _ & Hall).
    rewrite Hw in Hin. rewrite Forall_forall in Hall.
    destruct (bk_kind _ _ _ (write_seg_by_kind mode fs s (Hall s Hin))) as [K|[K|K]]; auto.
  - (* a server's write is the chunk loop alone: plain or low-entropy data *)
    unfold write in Hin. cbn [andb] in Hin.
    destruct (chunk_loop_spec (chunk_fuel n) mtu t mode fs n F Hn (chunk_fuel_enough n Hn)) as (segs & Hc & _ & Hall).
    rewrite Hc in Hin. rewrite Forall_forall in Hall.
    destruct (Hall s Hin) as [_ [(_ & Hk & _)|(_ & Hk & _)]]; auto.
Qed.

(* X is an endpoint of UdpProto: false = client, true = server; negb X is Sizes' is_client *)
Lemma seq_types_kinds : forall X, UdpProto.seq_types X =
  map (fun k => Z.to_N (proto_of (negb X) k)) [if X then KOpenResp else KOpenReq; KCloseReq; KCloseResp; KData; KDataLE].
Proof. destruct X; reflexivity. Qed.

(* every type an endpoint sequences or acknowledges with is the protocol number of a kind *)
Lemma udp_type_kind : forall X ty, UdpProto.is_seq X ty = true \/ UdpProto.is_ack X ty = true ->
  exists k, ty = Z.to_N (proto_of (negb X) k).
Proof.
  intros X ty [H|H].
  - apply existsb_exists in H. destruct H as (x & Hin & E). apply N.eqb_eq in E. subst x.
    rewrite seq_types_kinds in Hin. apply in_map_iff in Hin. destruct Hin as (k & E & _). eauto.
  - apply N.eqb_eq in H. subst ty. exists KAck. destruct X; reflexivity.
Qed.

(* the hypotheses k <> KData, k <> KDataLE of the second part are not needed: the bound holds for control_seg k of
   every kind *)
Lemma every_segment_kind_within_mtu : forall mtu mode (X first : bool) (b : list N) cfg_mid cfg_end,
  mtu_ok mtu -> mode_ok mode ->
  (forall s p, In (s, p) (fst (fst (plan_write (negb X) first mtu C14_TransportPacket mode b))) ->
     let c := UdpProto.mkC (Z.to_N (proto_of (negb X) (s_kind s))) (Z.to_N (s_frag s)) p in
     UdpProto.is_seq X (UdpProto.c_ty c) = true /\ Z.of_nat (length (UdpProto.c_pay c)) = s_body s /\
     forall p1 p2, draws_ok mtu C14_TransportPacket cfg_mid cfg_end s p1 p2 -> dgram_len s p1 p2 <= mtu) /\
  (forall ty, UdpProto.is_seq X ty = true \/ UdpProto.is_ack X ty = true ->
     exists k, ty = Z.to_N (proto_of (negb X) k) /\
       (k <> KData -> k <> KDataLE ->
        forall p1 p2, draws_ok mtu C14_TransportPacket cfg_mid cfg_end (control_seg k) p1 p2 ->
                      dgram_len (control_seg k) p1 p2 <= mtu)).
Proof.
  intros mtu mode X first b c1 c2 Hmtu Hmode. split.
  - intros s p Hin. cbv zeta. cbn [UdpProto.c_ty UdpProto.c_pay].
    destruct (plan_write_concat (negb X) first mtu C14_TransportPacket mode b Hmode (or_intror eq_refl) (fun _ => Hmtu))
      as (segs & Hpl & _ & Hmap & Hlens).
    rewrite Hpl in Hin. cbn [fst] in Hin.
    pose proof (in_map fst _ _ Hin) as Hs. rewrite Hmap in Hs. cbn [fst] in Hs.
    destruct (frag_facts_in_range mtu C14_TransportPacket mode Hmode (or_intror eq_refl) (fun _ => Hmtu)) as [fs F].
    pose proof (write_kinds _ _ _ _ _ _ _ s F (Nat2Z.is_nonneg _) Hs) as Hk.
    split; [|split].
    + destruct Hk as [Hk|[Hk|[Hk Hc]]]; rewrite Hk; destruct X; try discriminate Hc; reflexivity.
    + unfold lens_ok in Hlens. rewrite Forall_forall in Hlens. exact (Hlens (s, p) Hin).
    + intros p1 p2. apply fits_within_mtu.
      apply (emitted_fits mtu mode (negb X) first (Z.of_nat (length b)) s Hmtu Hmode (Nat2Z.is_nonneg _) (or_introl Hs)).
  - intros ty Hty.
    destruct (udp_type_kind X ty Hty) as [k ->]. exists k. split; [reflexivity|].
    intros _ _ p1 p2. apply fits_within_mtu, control_seg_fits. exact Hmtu.
Qed.

(* what both plans say about one queued segment: protocol number, fragment number, payload bytes *)
Definition proj14 (is_client : bool) (sp : seg * list N) : N * N * list N :=
  (Z.to_N (proto_of is_client (s_kind (fst sp))), Z.to_N (s_frag (fst sp)), snd sp).
Definition proj01 (p : TcpStream.pseg) : N * N * list N :=
  (TcpStream.p_proto p, TcpStream.p_frag p, TcpStream.p_payload p).

(* TcpStream counts in nat; its 32768 is never evaluated in unary here *)
Lemma maxPDU_Z : Z.of_nat TcpStream.maxPDU = C14_maxPDU.
Proof. apply Z2Nat.id. discriminate. Qed.

Lemma maxPDU_nat : Z.to_nat C14_maxPDU = TcpStream.maxPDU.
Proof. rewrite <- maxPDU_Z. apply Nat2Z.id. Qed.

Lemma maxOpen_Z : Z.of_nat TcpStream.maxOpenPayload = C14_MaxSessionOpenPayload.
Proof. apply Z2Nat.id. discriminate. Qed.

Lemma frag_size_Z : forall modeN, Z.of_nat (TcpStream.frag_size modeN) =
  if (modeN =? 0)%N then C14_maxPDU
  else Z.min C14_maxPDU (Z.of_N (Z.to_N C01_MaxUint16 / TcpStream.leChunkLen * TcpStream.le_src_bytes modeN)).
Proof.
  intros modeN. unfold TcpStream.frag_size. destruct (modeN =? 0)%N; [exact maxPDU_Z|].
  rewrite Nat2Z.inj_min, N_nat_Z, maxPDU_Z. reflexivity.
Qed.

Lemma mode5 : forall P : N -> Prop, P 0%N -> P 1%N -> P 2%N -> P 3%N -> P 4%N -> forall m, (m <= 4)%N -> P m.
Proof.
  intros P H0 H1 H2 H3 H4 m Hm.
  assert (m = 0 \/ m = 1 \/ m = 2 \/ m = 3 \/ m = 4)%N as [->|[->|[->|[->| ->]]]] by lia; assumption.
Qed.

Lemma mode_ok_of_N : forall modeN, (modeN <= 4)%N -> mode_ok (Z.of_N modeN).
Proof. apply mode5; unfold mode_ok; cbn; auto 6. Qed.

Lemma mode_off_of_N : forall modeN, (modeN <= 4)%N -> (Z.of_N modeN =? C14_ModeOff) = (modeN =? 0)%N.
Proof. apply mode5; reflexivity. Qed.

Lemma stream_fragment_agrees : forall mtu modeN, (modeN <= 4)%N ->
  max_fragment mtu C14_TransportStream (Z.of_N modeN) = Some (Z.of_nat (TcpStream.frag_size modeN)).
Proof. intros mtu modeN. rewrite frag_size_Z. revert modeN. apply mode5; reflexivity. Qed.

Lemma data_proto_agrees : forall client modeN, (modeN <= 4)%N ->
  TcpStream.data_proto client (negb (modeN =? 0)%N) =
  Z.to_N (proto_of client (if negb (Z.of_N modeN =? C14_ModeOff) then KDataLE else KData)).
Proof. intros client. apply mode5; destruct client; reflexivity. Qed.

Lemma frag_loop_attach : forall client k le mode fs (b : list N) segs seq,
  0 <= fs -> Z.of_nat k <= 256 ->
  frag_loop k le mode fs (Z.of_nat (length b)) = (segs, true) ->
  map (proj14 client) (attach segs b) =
  map proj01 (TcpStream.plan_frags (Z.to_N (proto_of client (if le then KDataLE else KData))) (Z.to_nat fs) k seq b).
Proof.
  induction k as [|j IH]; intros le mode fs b segs seq Hfs Hk H.
  - cbn [frag_loop] in H. inversion H; subst. reflexivity.
  - cbn [frag_loop] in H. set (part := Z.min fs (Z.of_nat (length b))) in *.
    destruct (if le then le_encoded_len part mode else Some (u16 part)) as [plen|]; [|discriminate H].
    replace (Z.of_nat (length b) - part) with (Z.of_nat (length (skipn (Z.to_nat fs) b))) in H
      by (rewrite skipn_length; unfold part; lia).
    destruct (frag_loop j le mode fs (Z.of_nat (length (skipn (Z.to_nat fs) b)))) as [rest ok] eqn:E.
    inversion H; subst segs ok. clear H.
    cbn [attach map TcpStream.plan_frags s_body]. unfold part. destruct (firstn_skipn_zmin N b fs Hfs) as [-> ->].
    f_equal.
    + unfold proj14, proj01. cbn [fst snd s_kind s_frag TcpStream.p_proto TcpStream.p_frag TcpStream.p_payload].
      rewrite u8_small by (consts; lia). f_equal. f_equal. lia.
    + apply (IH le mode fs _ rest (seq + 1)%N Hfs); [lia|exact E].
Qed.

Lemma nfrag_conv : forall fsn len, (0 < fsn)%nat -> (0 < len)%nat ->
  Z.to_nat (n_fragments (Z.of_nat fsn) (Z.of_nat len)) = TcpStream.nfrag fsn len.
Proof.
  intros fsn len Hf Hl. unfold n_fragments, TcpStream.nfrag.
  destruct (Nat.ltb_spec fsn len); destruct (Z.gtb_spec (Z.of_nat len) (Z.of_nat fsn)); try lia.
  rewrite Z.quot_div_nonneg by lia.
  replace (Z.of_nat len - 1) with (Z.of_nat (len - 1)) by lia.
  rewrite <- Nat2Z.inj_div. set (q := ((len - 1) / fsn)%nat). lia.
Qed.

(* the hypotheses under which one stream configuration of Sizes corresponds to one of TcpStream *)
Record stream_cfg (mtu mode fs : Z) (modeN : N) (client : bool) : Prop := {
  sc_facts : frag_facts mtu C14_TransportStream mode fs;
  sc_fs    : fs = Z.of_nat (TcpStream.frag_size modeN);
  sc_proto : TcpStream.data_proto client (negb (modeN =? 0)%N) =
             Z.to_N (proto_of client (if negb (mode =? C14_ModeOff) then KDataLE else KData))
}.

Lemma write_chunk_attach : forall mtu mode fs modeN client seq (c : list N),
  stream_cfg mtu mode fs modeN client ->
  (0 < length c <= TcpStream.maxPDU)%nat ->
  exists segs, write_chunk mtu C14_TransportStream mode (Z.of_nat (length c)) = (segs, Ok) /\
    map (proj14 client) (attach segs c) = map proj01 (TcpStream.plan_chunk client modeN seq c).
Proof.
  intros mtu mode fs modeN client seq c [F Hfs Hproto] Hc.
  assert (Hlen : 0 < Z.of_nat (length c) <= C14_maxPDU) by (rewrite <- maxPDU_Z; lia).
  destruct (write_chunk_spec mtu C14_TransportStream mode fs _ F Hlen) as (segs & Hw & _ & _ & _ & _ & Hfl).
  exists segs. split; [exact Hw|].
  pose proof (ff_range _ _ _ _ F) as Fr.
  pose proof (n_fragments_spec fs (Z.of_nat (length c)) ltac:(lia) Hlen) as Hn. cbv zeta in Hn.
  unfold TcpStream.plan_chunk. rewrite Hproto.
  rewrite <- (nfrag_conv (TcpStream.frag_size modeN) _ ltac:(lia) (proj1 Hc)), <- Hfs.
  replace (TcpStream.frag_size modeN) with (Z.to_nat fs) by lia.
  apply (frag_loop_attach client _ _ mode fs c segs seq); [lia|lia|exact Hfl].
Qed.

Lemma plan_chunks_unfold : forall f client modeN seq (b : list N), b <> [] ->
  TcpStream.plan_chunks (S f) client modeN seq b =
  TcpStream.plan_chunk client modeN seq (firstn TcpStream.maxPDU b) ++
  TcpStream.plan_chunks f client modeN (seq + TcpStream.lenN (TcpStream.plan_chunk client modeN seq (firstn TcpStream.maxPDU b))) (skipn TcpStream.maxPDU b).
Proof. intros f client modeN seq b Hb. destruct b; [congruence|reflexivity]. Qed.

Lemma chunk_loop_bytes_agree : forall f1 f2 mtu mode fs modeN client seq (b : list N),
  stream_cfg mtu mode fs modeN client ->
  Z.of_nat (length b) <= Z.of_nat f1 * C14_maxPDU -> (length b <= f2)%nat ->
  map (proj14 client) (fst (fst (chunk_loop_bytes f1 mtu C14_TransportStream mode b))) =
  map proj01 (TcpStream.plan_chunks f2 client modeN seq b).
Proof.
  intros f1 f2 mtu mode fs modeN client seq b SC H1. revert f2 seq. revert f1 b H1. refine (chunk_ind _ _ _).
  - intros f f2 seq _. rewrite chunk_loop_bytes_nil. destruct f2; reflexivity.
  - intros f b Hne IH f2 seq H2.
    assert (0 < length b)%nat by (destruct b; [congruence|cbn [length]; lia]).
    destruct f2 as [|f2']; [lia|]. pose proof maxPDU_Z as HP. unfold C14_maxPDU in HP.
    rewrite (chunk_loop_bytes_step f _ _ _ b Hne), (plan_chunks_unfold f2' client modeN seq b Hne).
    rewrite maxPDU_nat in IH |- *.
    set (c := firstn TcpStream.maxPDU b).
    assert (Hc : (0 < length c <= TcpStream.maxPDU)%nat) by (unfold c; rewrite firstn_length; lia).
    destruct (write_chunk_attach mtu mode fs modeN client seq c SC Hc) as (segs & -> & Hmap).
    specialize (IH f2' (seq + TcpStream.lenN (TcpStream.plan_chunk client modeN seq c))%N).
    destruct (chunk_loop_bytes f mtu C14_TransportStream mode (skipn TcpStream.maxPDU b)) as [[rest w] o].
    cbn [fst] in *. rewrite !map_app, Hmap. f_equal.
    apply IH. rewrite skipn_length. lia.
Qed.

Lemma stream_cfg_all : forall mtu (modeN : N) client, (modeN <= 4)%N ->
  exists fs, stream_cfg mtu (Z.of_N modeN) fs modeN client.
Proof.
  intros mtu modeN client Hm.
  destruct (frag_facts_in_range mtu C14_TransportStream (Z.of_N modeN) (mode_ok_of_N modeN Hm) (or_introl eq_refl))
    as [fs F]; [discriminate|].
  exists fs. constructor; [exact F| |exact (data_proto_agrees client modeN Hm)].
  pose proof (ff_eq _ _ _ _ F) as E. rewrite (stream_fragment_agrees mtu modeN Hm) in E. congruence.
Qed.

(* the data segments of a Write, with the fuel each side gives its loop, whatever the first sequence number *)
Lemma write_data_agrees : forall mtu (modeN : N) client seq (b : list N), (modeN <= 4)%N ->
  map (proj14 client)
      (fst (fst (chunk_loop_bytes (chunk_fuel (Z.of_nat (length b))) mtu C14_TransportStream (Z.of_N modeN) b))) =
  map proj01 (TcpStream.plan_chunks (length b) client modeN seq b).
Proof.
  intros mtu modeN client seq b Hm.
  destruct (stream_cfg_all mtu modeN client Hm) as [fs SC].
  apply (chunk_loop_bytes_agree _ _ mtu _ fs modeN client seq b SC); [|apply le_n].
  apply chunk_fuel_enough, Nat2Z.is_nonneg.
Qed.

Lemma plan_agrees_with_tcpstream : forall (client : bool) (st : TcpStream.wst) (modeN : N) (b : list N) mtu,
  (modeN <= 4)%N ->
  map (proj14 client)
      (fst (fst (plan_write client (negb (TcpStream.w_opened st)) mtu C14_TransportStream (Z.of_N modeN) b))) =
  map proj01 (fst (TcpStream.plan_event client st (TcpStream.WWrite modeN b))).
Proof.
  intros client st modeN b mtu Hm.
  unfold plan_write, TcpStream.plan_event. cbv zeta.
  destruct (client && negb (TcpStream.w_opened st)).
  2:{ cbn [fst]. apply write_data_agrees, Hm. }
  assert (Hleb : (Z.of_nat (length b) <=? C14_MaxSessionOpenPayload) = (length b <=? TcpStream.maxOpenPayload)%nat).
  { pose proof maxOpen_Z.
    destruct (Z.leb_spec (Z.of_nat (length b)) C14_MaxSessionOpenPayload);
      destruct (Nat.leb_spec (length b) TcpStream.maxOpenPayload); lia. }
  rewrite (mode_off_of_N modeN Hm), Hleb.
  destruct ((modeN =? 0)%N && (length b <=? TcpStream.maxOpenPayload)%nat).
  - (* the open request carries b; an empty b goes through the loop, which has nothing to do *)
    destruct b; reflexivity.
  - change (0 >? 0) with false. cbv iota.
    pose proof (write_data_agrees mtu modeN client (TcpStream.w_seq st + 1)%N b Hm) as Hag.
    destruct (chunk_loop_bytes (chunk_fuel (Z.of_nat (length b))) mtu C14_TransportStream (Z.of_N modeN) b) as [[segs w] o].
    cbn [fst map] in *. rewrite Hag. reflexivity.
Qed.

(* a low-entropy first write of 5 bytes on a client stream: open request without payload, then one data segment *)
Example ex_plan_agreement :
  map (proj14 true) (fst (fst (plan_write true true 1400 C14_TransportStream 1 [1; 2; 3; 4; 5]%N))) =
    [(2, 0, []); (10, 0, [1; 2; 3; 4; 5])]%N /\
  map proj01 (fst (TcpStream.plan_event true TcpStream.w_init (TcpStream.WWrite 1 [1; 2; 3; 4; 5]%N))) =
    [(2, 0, []); (10, 0, [1; 2; 3; 4; 5])]%N.
Proof. split; vm_compute; reflexivity. Qed.
