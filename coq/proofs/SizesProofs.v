(* C14 — proofs about model/Sizes.v.  Everything is read off [write_spec] (what Write queues, given the facts
   [frag_facts] about the fragment size) and [fits_within_mtu].
   Literals derived from gen/Consts.v: 4..7 = C14_Src32..C14_Src56; 8191 = C14_MaxUint16 quot 8; 128 = C14_maxPDU / 256;
   149 = (1280 - 88) quot 8, 176 = (1500 - 88) quot 8. *)
From Coq Require Import ZArith Lia List Bool.
From M Require Import gen.Consts model.Sizes.
Import ListNotations.
Open Scope Z_scope.
(* Go's / and % are Z.quot and Z.rem: lia needs this hook for them *)
#[local] Ltac Zify.zify_post_hook ::= Z.to_euclidean_division_equations.

(* checked on the constants regenerated from /repo; no proof below uses these, the proofs unfold the constants *)
Lemma consts_layout :
  C14_packetOverhead = C14_NonceSize + C14_MetadataLength + 2 * C14_TagOverhead /\
  C14_packetNonHeaderPosition = header_len /\
  C14_streamOverhead = C14_MetadataLength + 2 * C14_TagOverhead.
Proof. vm_compute. repeat split; reflexivity. Qed.

Lemma consts_mtu_range :
  C14_ServerMinMTU = C14_ClientMinMTU /\ C14_ServerMaxMTU = C14_ClientMaxMTU /\
  C14_ServerMTURangeContiguous = 1 /\ C14_ClientMTURangeContiguous = 1 /\
  C14_ServerMinMTU <= C14_DefaultMTU <= C14_ServerMaxMTU /\
  C14_packetOverhead + C14_MaxSessionOpenPayload <= C14_ServerMinMTU.
Proof. vm_compute. repeat split; congruence. Qed.

Lemma consts_modes :
  C14_ExtraLEModes = 0 /\ C14_MaxConfiguredMiddlePadding <= C14_MaxUint8 /\ C14_MaxConfiguredEndPadding <= C14_MaxUint8 /\
  C14_StreamPaddingCap <= C14_MaxUint8 /\ C14_PacketPaddingCap <= C14_MaxUint8.
Proof. vm_compute. repeat split; congruence. Qed.

Definition mtu_ok (mtu : Z) : Prop := C14_ServerMinMTU <= mtu <= C14_ServerMaxMTU.
Definition mode_ok (mode : Z) : Prop :=
  mode = C14_ModeOff \/ mode = C14_Mode32 \/ mode = C14_Mode40 \/ mode = C14_Mode48 \/ mode = C14_Mode56.
Definition transport_ok (t : Z) : Prop := t = C14_TransportStream \/ t = C14_TransportPacket.

(* lia does not unfold the constants of gen/Consts.v *)
Ltac consts :=
  unfold C14_packetOverhead, C14_NonceSize, C14_MetadataLength, C14_TagOverhead, C14_maxPDU,
    C14_MaxSessionOpenPayload, C14_lowEntropyChunkLen, C14_MaxUint16, C14_MaxUint8,
    C14_StreamPaddingCap, C14_PacketPaddingCap, C14_ServerMinMTU, C14_ServerMaxMTU,
    C14_TransportStream, C14_TransportPacket, C14_TransportUnknown,
    C14_ModeOff, C14_Mode32, C14_Mode40, C14_Mode48, C14_Mode56,
    C14_Src32, C14_Src40, C14_Src48, C14_Src56 in *.

Lemma u16_small : forall x, 0 <= x <= C14_MaxUint16 -> u16 x = x.
Proof. intros x H. apply Z.mod_small. lia. Qed.

Lemma u8_small : forall x, 0 <= x <= C14_MaxUint8 -> u8 x = x.
Proof. intros x H. apply Z.mod_small. lia. Qed.

Lemma max_padding_range : forall mtu t frag ex,
  0 <= max_padding mtu t frag ex <= C14_MaxUint8.
Proof.
  intros. unfold max_padding. destruct (is_stream t).
  - consts. lia.
  - destruct (Z.leb_spec (mtu - frag - C14_packetOverhead) ex); consts; lia.
Qed.

Lemma max_padding_packet : forall mtu frag ex,
  max_padding mtu C14_TransportPacket frag ex <= Z.max 0 (mtu - frag - C14_packetOverhead - ex).
Proof.
  intros. unfold max_padding. change (is_stream C14_TransportPacket) with false. cbv iota zeta.
  destruct (Z.leb_spec (mtu - frag - C14_packetOverhead) ex); lia.
Qed.

Lemma max_padding_tp_le : forall mtu t frag ex cfg,
  0 <= max_padding_tp mtu t frag ex cfg <= max_padding mtu t frag ex.
Proof.
  intros. unfold max_padding_tp. pose proof (max_padding_range mtu t frag ex).
  destruct cfg as [c|]; [|lia]. destruct (Z.ltb_spec c 0); lia.
Qed.

Lemma max_padding_tp_range : forall mtu t frag ex cfg,
  0 <= max_padding_tp mtu t frag ex cfg <= C14_MaxUint8.
Proof.
  intros. pose proof (max_padding_tp_le mtu t frag ex cfg). pose proof (max_padding_range mtu t frag ex). lia.
Qed.

Lemma max_padding_tp_cfg : forall mtu t frag ex c,
  0 <= c -> max_padding_tp mtu t frag ex (Some c) <= c.
Proof. intros. unfold max_padding_tp. destruct (Z.ltb_spec c 0); lia. Qed.

Lemma packet_padding_budget : forall mtu frag c1 c2 p1 p2,
  0 <= p1 <= max_padding_tp mtu C14_TransportPacket frag 0 c1 ->
  0 <= p2 <= max_padding_tp mtu C14_TransportPacket frag p1 c2 ->
  p1 + p2 <= Z.max 0 (mtu - frag - C14_packetOverhead).
Proof.
  intros mtu frag c1 c2 p1 p2 H1 H2.
  pose proof (max_padding_tp_le mtu C14_TransportPacket frag 0 c1).
  pose proof (max_padding_tp_le mtu C14_TransportPacket frag p1 c2).
  pose proof (max_padding_packet mtu frag 0). pose proof (max_padding_packet mtu frag p1). lia.
Qed.

Lemma draws_within_byte : forall mtu t c1 c2 s p1 p2,
  draws_ok mtu t c1 c2 s p1 p2 -> 0 <= p1 <= C14_MaxUint8 /\ 0 <= p2 <= C14_MaxUint8.
Proof.
  intros mtu t c1 c2 s p1 p2 [H1 H2]. unfold pad1_max, pad2_max in *.
  pose proof (max_padding_tp_range mtu t (s_plen s) 0 c1).
  pose proof (max_padding_tp_range mtu t (s_plen s) (if is_session (s_kind s) then 0 else p1) c2).
  destruct (is_session (s_kind s)); lia.
Qed.

Lemma src_bytes_cases : forall mode sb, src_bytes mode = Some sb ->
  (mode = C14_Mode32 /\ sb = C14_Src32) \/ (mode = C14_Mode40 /\ sb = C14_Src40) \/
  (mode = C14_Mode48 /\ sb = C14_Src48) \/ (mode = C14_Mode56 /\ sb = C14_Src56).
Proof.
  intros mode sb H. unfold src_bytes in H.
  destruct (Z.eqb_spec mode C14_Mode32); [injection H as <-; left; auto|].
  destruct (Z.eqb_spec mode C14_Mode40); [injection H as <-; right; left; auto|].
  destruct (Z.eqb_spec mode C14_Mode48); [injection H as <-; do 2 right; left; auto|].
  destruct (Z.eqb_spec mode C14_Mode56); [injection H as <-; do 3 right; auto|]. discriminate.
Qed.

Lemma src_bytes_range : forall mode sb, src_bytes mode = Some sb -> 4 <= sb <= 7.
Proof. intros mode sb H. apply src_bytes_cases in H. consts. lia. Qed.

Lemma mode_ok_src : forall mode, mode_ok mode -> mode <> C14_ModeOff -> exists sb, src_bytes mode = Some sb.
Proof.
  intros mode H Hn. destruct H as [H|[H|[H|[H|H]]]]; subst; try congruence; eexists; reflexivity.
Qed.

Lemma max_chunks_val : max_chunks = 8191.
Proof. reflexivity. Qed.

Lemma chunk_count_ceil : forall n sb, 0 < sb -> 0 <= n ->
  let c := Z.quot n sb + (if Z.rem n sb =? 0 then 0 else 1) in
  c = (n + sb - 1) / sb /\ sb * (c - 1) < n <= sb * c.
Proof.
  intros n sb Hsb Hn. cbv zeta. rewrite Z.quot_div_nonneg, Z.rem_mod_nonneg by lia.
  pose proof (Z.div_mod n sb ltac:(lia)) as E. pose proof (Z.mod_pos_bound n sb Hsb) as R.
  set (q := n / sb) in *. set (r := n mod sb) in *.
  destruct (Z.eqb_spec r 0).
  - split; [apply Z.div_unique_pos with (r := sb - 1)|]; lia.
  - split; [apply Z.div_unique_pos with (r := r - 1)|]; lia.
Qed.

Lemma le_encoded_len_spec : forall n mode sb k,
  src_bytes mode = Some sb -> 0 < n -> n <= k * sb -> k <= max_chunks ->
  exists e, le_encoded_len n mode = Some e /\
            e = C14_lowEntropyChunkLen * ((n + sb - 1) / sb) /\
            n <= e <= C14_lowEntropyChunkLen * k /\ e <= C14_MaxUint16.
Proof.
  intros n mode sb k Hs Hn Hk Hm. unfold le_encoded_len. rewrite Hs.
  pose proof (src_bytes_range _ _ Hs) as Hr. rewrite max_chunks_val in *.
  destruct (Z.leb_spec n 0); [lia|].
  destruct (chunk_count_ceil n sb ltac:(lia) ltac:(lia)) as [Hc1 Hc2].
  set (c := Z.quot n sb + _) in *. clearbody c. rewrite <- Hc1. clear Hc1.
  assert (Hck : c - 1 < k) by (apply (Z.mul_lt_mono_pos_l sb); lia).
  pose proof (Z.mul_le_mono_nonneg_r sb 8 c ltac:(lia) ltac:(lia)) as Hc8.
  destruct (Z.gtb_spec c 8191); [lia|].
  eexists. split; [reflexivity|]. rewrite u16_small by (consts; lia). consts. lia.
Qed.

Lemma max_fragment_off : forall mtu t, max_fragment mtu t C14_ModeOff = Some (max_fragment_internal mtu t).
Proof. reflexivity. Qed.

Lemma max_fragment_le : forall mtu t mode sb, mode <> C14_ModeOff -> src_bytes mode = Some sb ->
  max_fragment mtu t mode =
  if is_stream t then Some (Z.min (max_fragment_internal mtu t) (max_chunks * sb))
  else if is_packet t then
    let c := Z.quot (mtu - C14_packetOverhead) C14_lowEntropyChunkLen in
    if c <=? 0 then None else Some (c * sb)
  else Some (max_fragment_internal mtu t).
Proof.
  intros mtu t mode sb Hoff Hs. unfold max_fragment. rewrite Hs.
  destruct (Z.eqb_spec mode C14_ModeOff); [contradiction|reflexivity].
Qed.

(* what the theorems about Write use of a configuration.  ff_range: fs >= 128 keeps the uint8 fragment number of a
   maxPDU chunk from wrapping, fs <= maxPDU is one chunk; ff_off and the last clause of ff_le: room for the overhead
   on the packet transport; k in ff_le: whole chunks that hold fs source bytes, so the encoded length is <= 8k <= 65535 *)
Record frag_facts (mtu t mode fs : Z) : Prop := {
  ff_eq    : max_fragment mtu t mode = Some fs;
  ff_range : 128 <= fs <= C14_maxPDU;
  ff_off   : mode = C14_ModeOff -> t = C14_TransportPacket -> fs <= mtu - C14_packetOverhead;
  ff_le    : mode <> C14_ModeOff -> exists sb k, src_bytes mode = Some sb /\ fs <= k * sb /\ k <= max_chunks /\
               (t = C14_TransportPacket -> C14_lowEntropyChunkLen * k <= mtu - C14_packetOverhead)
}.

Lemma max_fragment_internal_range : forall mtu t,
  transport_ok t -> (t = C14_TransportPacket -> mtu_ok mtu) ->
  128 <= max_fragment_internal mtu t <= C14_maxPDU /\
  (t = C14_TransportPacket -> max_fragment_internal mtu t <= mtu - C14_packetOverhead).
Proof.
  intros mtu t [-> | ->] Hmtu; unfold max_fragment_internal.
  - change (is_stream C14_TransportStream) with true. cbv iota. consts. split; [lia|discriminate].
  - (* mtu - 88 >= 1192 *)
    specialize (Hmtu eq_refl). unfold mtu_ok in Hmtu. change (is_stream C14_TransportPacket) with false. cbv iota.
    consts. lia.
Qed.

(* whole chunks in a datagram of a validated MTU: 149 = (1280 - 88) quot 8, 176 = (1500 - 88) quot 8 *)
Lemma mtu_chunks_range : forall mtu, mtu_ok mtu ->
  let c := Z.quot (mtu - C14_packetOverhead) C14_lowEntropyChunkLen in
  149 <= c <= 176 /\ C14_lowEntropyChunkLen * c <= mtu - C14_packetOverhead.
Proof. unfold mtu_ok. intros mtu H. cbv zeta. consts. lia. Qed.

Lemma frag_facts_in_range : forall mtu t mode,
  mode_ok mode -> transport_ok t -> (t = C14_TransportPacket -> mtu_ok mtu) ->
  exists fs, frag_facts mtu t mode fs.
Proof.
  intros mtu t mode Hm Ht Hmtu.
  destruct (Z.eq_dec mode C14_ModeOff) as [->|Hoff].
  - destruct (max_fragment_internal_range mtu t Ht Hmtu) as [R P].
    exists (max_fragment_internal mtu t).
    constructor; [apply max_fragment_off|exact R|intros _; exact P|congruence].
  - destruct (mode_ok_src mode Hm Hoff) as [sb Hsb].
    pose proof (src_bytes_range _ _ Hsb) as Hr.
    pose proof (max_fragment_le mtu t mode sb Hoff Hsb) as E.
    destruct Ht as [-> | ->].
    + exists (Z.min C14_maxPDU (max_chunks * sb)).
      constructor; [exact E|rewrite max_chunks_val; consts; lia|congruence|].
      intros _. exists sb, max_chunks.
      split; [assumption|]. split; [apply Z.le_min_r|]. split; [reflexivity|intros X; discriminate X].
    + destruct (mtu_chunks_range mtu (Hmtu eq_refl)) as [Hc Hc8].
      change (is_stream C14_TransportPacket) with false in E. change (is_packet C14_TransportPacket) with true in E.
      cbv iota zeta in E. set (c := Z.quot (mtu - C14_packetOverhead) C14_lowEntropyChunkLen) in *.
      destruct (Z.leb_spec c 0); [lia|].
      assert (Hfs : 149 * 4 <= c * sb <= 176 * 7) by (split; apply Z.mul_le_mono_nonneg; lia).
      exists (c * sb). constructor; [exact E|consts; lia|congruence|].
      intros _. exists sb, c. rewrite max_chunks_val. repeat split; try assumption; lia.
Qed.

Definition sum_body (l : list seg) : Z := fold_right (fun s a => s_body s + a) 0 l.

Lemma sum_body_app : forall a b, sum_body (a ++ b) = sum_body a + sum_body b.
Proof. unfold sum_body. induction a as [|s a IH]; intros b; [reflexivity|]. cbn [app fold_right]. rewrite IH. lia. Qed.

(* a data segment as writeChunk builds it when nothing wraps *)
Definition data_seg_ok (mode fs : Z) (s : seg) : Prop :=
  (0 < s_body s <= fs /\ 0 <= s_frag s <= C14_MaxUint8) /\
  ((mode = C14_ModeOff /\ s_kind s = KData /\ s_plen s = s_body s /\ s_ext s = 0) \/
   (mode <> C14_ModeOff /\ s_kind s = KDataLE /\ s_ext s = s_body s /\ le_encoded_len (s_body s) mode = Some (s_plen s))).

Fixpoint countdown (i : nat) : list Z :=
  match i with O => [] | S i' => Z.of_nat i' :: countdown i' end.

Lemma countdown_length : forall i, length (countdown i) = i.
Proof. induction i; cbn [countdown length]; congruence. Qed.

(* one pass of the body of writeChunk's loop *)
Lemma data_seg_built : forall mtu t mode fs part i,
  frag_facts mtu t mode fs -> 0 < part <= fs -> 0 <= i <= C14_MaxUint8 ->
  let le := negb (mode =? C14_ModeOff) in
  exists plen, (if le then le_encoded_len part mode else Some (u16 part)) = Some plen /\
    data_seg_ok mode fs (mkSeg (if le then KDataLE else KData) i plen (if le then u16 part else 0) part).
Proof.
  intros mtu t mode fs part i [_ Fr _ Fle] Hpart Hi. unfold data_seg_ok. cbn [s_body s_kind s_plen s_ext s_frag].
  assert (H16 : part <= C14_MaxUint16) by (consts; lia).
  destruct (Z.eqb_spec mode C14_ModeOff) as [Hoff|Hoff]; cbn [negb].
  - exists (u16 part). rewrite u16_small by lia. auto 8.
  - destruct (Fle Hoff) as (sb & k & Hs & Hk & Hm & _).
    destruct (le_encoded_len_spec part mode sb k Hs) as (e & He & _); try lia.
    exists e. rewrite u16_small by lia. auto 8.
Qed.

Lemma frag_loop_spec : forall i mtu t mode fs rem,
  frag_facts mtu t mode fs -> 0 <= rem -> (Z.of_nat i - 1) * fs < rem <= Z.of_nat i * fs ->
  Z.of_nat i <= C14_MaxUint8 + 1 ->
  exists segs, frag_loop i (negb (mode =? C14_ModeOff)) mode fs rem = (segs, true) /\
    sum_body segs = rem /\ Forall (data_seg_ok mode fs) segs /\
    map s_frag segs = countdown i.
Proof.
  induction i as [|i IH]; intros mtu t mode fs rem F H0 Hrem H8; pose proof (ff_range _ _ _ _ F) as Fr.
  - exists []. cbn in *. repeat split; [lia|constructor].
  - cbn [frag_loop]. rewrite Nat2Z.inj_succ in Hrem, H8.
    set (part := Z.min fs rem).
    assert (Hpart : 0 < part <= fs) by (unfold part; lia).
    rewrite u8_small by lia.
    destruct (data_seg_built mtu t mode fs part (Z.of_nat i) F Hpart ltac:(lia)) as (plen & -> & Hseg).
    destruct (IH mtu t mode fs (rem - part) F) as (rest & -> & Hsum & Hall & Hfr); [unfold part; lia..|].
    eexists. split; [reflexivity|]. cbn [sum_body fold_right map s_body s_frag countdown]. fold (sum_body rest).
    split; [lia|]. split; [constructor; assumption|congruence].
Qed.

Lemma n_fragments_spec : forall fs len, 128 <= fs -> 0 < len <= C14_maxPDU ->
  let nf := n_fragments fs len in
  1 <= nf <= 256 /\ (nf - 1) * fs < len <= nf * fs.
Proof.
  intros fs len Hfs Hlen. unfold n_fragments.
  destruct (Z.gtb_spec len fs) as [Hg|Hg]; [|lia].
  rewrite Z.quot_div_nonneg by lia.
  pose proof (Z.mul_div_le (len - 1) fs ltac:(lia)) as A.
  pose proof (Z.mul_succ_div_gt (len - 1) fs ltac:(lia)) as B.
  pose proof (Z.div_pos (len - 1) fs ltac:(lia) ltac:(lia)) as Q.
  set (q := (len - 1) / fs) in *. clearbody q.
  pose proof (Z.mul_le_mono_nonneg_r 128 fs q Q Hfs). consts. lia.
Qed.

Lemma write_chunk_spec : forall mtu t mode fs len,
  frag_facts mtu t mode fs -> 0 < len <= C14_maxPDU ->
  exists segs, write_chunk mtu t mode len = (segs, Ok) /\
    sum_body segs = len /\ Forall (data_seg_ok mode fs) segs /\
    map s_frag segs = countdown (length segs) /\ (1 <= Z.of_nat (length segs) <= 256) /\
    frag_loop (Z.to_nat (n_fragments fs len)) (negb (mode =? C14_ModeOff)) mode fs len = (segs, true).
Proof.
  intros mtu t mode fs len F Hlen. pose proof (ff_range _ _ _ _ F) as Fr.
  unfold write_chunk. rewrite (ff_eq _ _ _ _ F).
  destruct (Z.eqb_spec fs 0); [lia|]. rewrite andb_false_r.
  pose proof (n_fragments_spec fs len ltac:(lia) Hlen) as Hn. cbv zeta in Hn.
  set (nf := n_fragments fs len) in *.
  destruct (frag_loop_spec (Z.to_nat nf) mtu t mode fs len F) as (segs & Hfl & Hsum & Hall & Hfr);
    rewrite ?Z2Nat.id by lia; try lia.
  - consts. lia.
  - rewrite Hfl. exists segs.
    assert (Hlen' : length segs = Z.to_nat nf) by (rewrite <- (map_length s_frag), Hfr; apply countdown_length).
    rewrite Hlen'. repeat split; auto; lia.
Qed.

Lemma chunk_loop_spec : forall fuel mtu t mode fs rem,
  frag_facts mtu t mode fs -> 0 <= rem -> rem <= Z.of_nat fuel * C14_maxPDU ->
  exists segs, chunk_loop fuel mtu t mode rem = (segs, rem, Ok) /\
    sum_body segs = rem /\ Forall (data_seg_ok mode fs) segs.
Proof.
  induction fuel as [|f IH]; intros mtu t mode fs rem F H0 Hf.
  - assert (rem = 0) by (consts; lia). subst. exists []. repeat split; constructor.
  - cbn [chunk_loop]. destruct (Z.leb_spec rem 0).
    + assert (rem = 0) by lia. subst. exists []. repeat split; constructor.
    + set (size := Z.min rem C14_maxPDU).
      assert (Hs : 0 < size <= C14_maxPDU) by (unfold size; consts; lia).
      destruct (write_chunk_spec mtu t mode fs size F Hs) as (segs & -> & Hsum & Hall & _).
      destruct (IH mtu t mode fs (rem - size) F) as (rest & -> & Hsum' & Hall').
      * unfold size. lia.
      * unfold size. rewrite Nat2Z.inj_succ in Hf. consts. lia.
      * exists (segs ++ rest). split; [f_equal; f_equal; lia|].
        split; [rewrite sum_body_app; lia|]. apply Forall_app. auto.
Qed.

Lemma chunk_fuel_enough : forall n, 0 <= n -> n <= Z.of_nat (chunk_fuel n) * C14_maxPDU.
Proof. intros n Hn. unfold chunk_fuel. rewrite Nat2Z.inj_succ, Z2Nat.id by (consts; lia). consts. lia. Qed.

(* what every segment queued by Write looks like when nothing wraps *)
Definition write_seg_ok (mode fs : Z) (s : seg) : Prop :=
  data_seg_ok mode fs s \/
  (s_kind s = KOpenReq /\ s_frag s = 0 /\ s_ext s = 0 /\ s_plen s = s_body s /\
   0 <= s_body s <= C14_MaxSessionOpenPayload /\ (0 < s_body s -> mode = C14_ModeOff)).

Lemma open_seg_ok : forall mode fs body,
  0 <= body <= C14_MaxSessionOpenPayload -> (0 < body -> mode = C14_ModeOff) ->
  write_seg_ok mode fs (mkSeg KOpenReq 0 (u16 body) 0 body).
Proof.
  intros mode fs body Hb Hm. right. cbn [s_kind s_frag s_ext s_plen s_body].
  rewrite u16_small by (consts; lia). auto 8.
Qed.

Lemma write_spec : forall is_client first mtu t mode fs n,
  frag_facts mtu t mode fs -> 0 <= n ->
  exists segs, write is_client first mtu t mode n = (segs, n, Ok) /\
    sum_body segs = n /\ Forall (write_seg_ok mode fs) segs.
Proof.
  intros is_client first mtu t mode fs n F Hn. unfold write.
  destruct (chunk_loop_spec (chunk_fuel n) mtu t mode fs n F Hn (chunk_fuel_enough n Hn)) as (segs & -> & Hsum & Hall).
  pose proof (Forall_impl (write_seg_ok mode fs) (fun a Ha => or_introl Ha) Hall) as Hall'.
  destruct (is_client && first); [|eauto].
  (* the open request carries the whole write or nothing *)
  set (body := if (mode =? C14_ModeOff) && (n <=? C14_MaxSessionOpenPayload) then n else 0).
  assert (Hb : 0 <= body <= C14_MaxSessionOpenPayload /\ (0 < body -> mode = C14_ModeOff /\ body = n)).
  { unfold body. destruct (Z.eqb_spec mode C14_ModeOff); destruct (Z.leb_spec n C14_MaxSessionOpenPayload);
      cbn [andb]; consts; lia. }
  pose proof (open_seg_ok mode fs body (proj1 Hb) (fun H => proj1 (proj2 Hb H))) as Ho.
  destruct (Z.gtb_spec body 0) as [Hp|Hp].
  - destruct (proj2 Hb Hp) as [_ E]. eexists. split; [rewrite <- E; reflexivity|].
    cbn [sum_body fold_right s_body]. split; [lia|]. constructor; [exact Ho|constructor].
  - eexists. split; [reflexivity|]. cbn [sum_body fold_right s_body]. fold (sum_body segs).
    split; [lia|]. constructor; assumption.
Qed.

(* write_seg_ok read by kind *)
Record seg_by_kind (mode fs : Z) (s : seg) : Prop := {
  bk_kind : s_kind s = KData \/ s_kind s = KDataLE \/ s_kind s = KOpenReq;
  bk_data : is_session (s_kind s) = false -> 0 < s_body s <= fs;
  bk_open : is_session (s_kind s) = true -> s_kind s = KOpenReq /\ s_body s <= C14_MaxSessionOpenPayload /\
                                            s_plen s = s_body s /\ (0 < s_body s -> mode = C14_ModeOff);
  bk_off  : s_kind s = KData -> mode = C14_ModeOff /\ s_plen s = s_body s;
  bk_le   : s_kind s = KDataLE -> mode <> C14_ModeOff /\ s_ext s = s_body s /\
                                  le_encoded_len (s_body s) mode = Some (s_plen s)
}.

Lemma write_seg_by_kind : forall mode fs s, write_seg_ok mode fs s -> seg_by_kind mode fs s.
Proof.
  intros mode fs s [[[Hb _] [Hdata|Hle]]|Hopen].
  (* in each case the fields about the other kinds have a false premise *)
  - destruct Hdata as (Hoff & Hk & Hp & _). constructor; rewrite Hk; cbn [is_session]; try discriminate; auto.
  - destruct Hle as (Hoff & Hk & He & Hp). constructor; rewrite Hk; cbn [is_session]; try discriminate; auto.
  - destruct Hopen as (Hk & _ & _ & Hp & Hb & Hm). constructor; rewrite Hk; cbn [is_session]; try discriminate; auto.
    intros _. repeat split; auto. lia.
Qed.

(* sr_fits: room for the overhead; sr_wire: the wire carries what the length field counts *)
Record seg_ranges (mtu t : Z) (s : seg) : Prop := {
  sr_body : 0 <= s_body s <= s_plen s;
  sr_plen : s_plen s <= C14_MaxUint16;
  sr_pdu  : s_body s <= C14_maxPDU;
  sr_ext  : 0 <= s_ext s <= s_body s;
  sr_frag : 0 <= s_frag s <= C14_MaxUint8;
  sr_wire : wire_payload s = (if s_body s >? 0 then s_plen s + C14_TagOverhead else 0);
  sr_fits : t = C14_TransportPacket -> mtu_ok mtu -> s_plen s <= mtu - C14_packetOverhead
}.

Lemma write_seg_ranges : forall mtu t mode fs s,
  frag_facts mtu t mode fs -> write_seg_ok mode fs s -> seg_ranges mtu t s.
Proof.
  intros mtu t mode fs s [Feq Fr Foff Fle] W.
  destruct W as [[[Hb Hf] [(Hoff & Hk & Hp & He)|(Hoff & Hk & He & Hp)]]|(Hk & Hf & He & Hp & Hb & Hm)].
  - (* plain data *)
    constructor; rewrite ?Hp, ?He; try lia.
    + consts. lia.
    + unfold wire_payload. rewrite Hk. reflexivity.
  - (* low-entropy data: plen is the encoded length, at most 8k *)
    destruct (Fle Hoff) as (sb & k & Hs & Hk1 & Hk2 & Hk3).
    destruct (le_encoded_len_spec (s_body s) mode sb k Hs) as (e & Hee & _ & Hb1 & Hb2); try lia.
    rewrite Hee in Hp. injection Hp as ->.
    constructor; rewrite ?He; try lia.
    + unfold wire_payload. rewrite Hk. reflexivity.
  - (* open request: at most 1024 bytes whatever the MTU *)
    constructor; rewrite ?Hp, ?He, ?Hf; try (consts; lia).
    + unfold wire_payload. rewrite Hk. reflexivity.
    + unfold mtu_ok. intros _. consts. lia.
Qed.

Definition fits_mtu (mtu : Z) (s : seg) : Prop :=
  0 <= s_plen s <= mtu - C14_packetOverhead /\
  wire_payload s <= (if s_body s >? 0 then s_plen s + C14_TagOverhead else 0).

(* the one inequality behind every MTU bound *)
Lemma fits_within_mtu : forall mtu s c1 c2 p1 p2,
  fits_mtu mtu s -> draws_ok mtu C14_TransportPacket c1 c2 s p1 p2 -> dgram_len s p1 p2 <= mtu.
Proof.
  intros mtu s c1 c2 p1 p2 [Hp Hw] [H1 H2]. unfold dgram_len, pad1_max, pad2_max in *.
  pose proof (max_padding_tp_le mtu C14_TransportPacket (s_plen s) 0 c1) as R.
  assert (B : (if is_session (s_kind s) then 0 else p1) + p2 <= Z.max 0 (mtu - s_plen s - C14_packetOverhead)).
  { apply (packet_padding_budget mtu (s_plen s) c1 c2); [destruct (is_session (s_kind s)); lia|exact H2]. }
  unfold header_len. destruct (s_body s >? 0); consts; lia.
Qed.

Lemma control_seg_fits : forall mtu k, mtu_ok mtu -> fits_mtu mtu (control_seg k).
Proof. unfold mtu_ok, fits_mtu. intros mtu k. cbn. consts. lia. Qed.

Lemma emitted_fits : forall mtu mode is_client first n s,
  mtu_ok mtu -> mode_ok mode -> 0 <= n ->
  emitted is_client first mtu C14_TransportPacket mode n s ->
  fits_mtu mtu s /\ s_plen s <= C14_MaxUint16.
Proof.
  intros mtu mode is_client first n s Hmtu Hmode Hn [Hin|(k & _ & ->)].
  - destruct (frag_facts_in_range mtu C14_TransportPacket mode Hmode (or_intror eq_refl) (fun _ => Hmtu)) as [fs F].
    destruct (write_spec is_client first mtu C14_TransportPacket mode fs n F Hn) as (segs & Hw & _ & Hall).
    rewrite Hw in Hin. rewrite Forall_forall in Hall.
    destruct (write_seg_ranges _ _ _ _ s F (Hall s Hin)) as [Hb H16 _ _ _ Hwire Hp].
    specialize (Hp eq_refl Hmtu). unfold fits_mtu. rewrite Hwire. lia.
  - split; [exact (control_seg_fits mtu k Hmtu)|cbn; consts; lia].
Qed.

Lemma nil_or_not : forall (A : Type) (b : list A), b = [] \/ b <> [].
Proof. destruct b; [left; reflexivity|right; discriminate]. Qed.

Lemma firstn_skipn_zmin : forall (A : Type) (b : list A) fs, 0 <= fs ->
  let k := Z.to_nat (Z.min fs (Z.of_nat (length b))) in
  firstn k b = firstn (Z.to_nat fs) b /\ skipn k b = skipn (Z.to_nat fs) b.
Proof.
  intros A b fs H. cbv zeta. destruct (Z.le_ge_cases fs (Z.of_nat (length b))).
  - rewrite Z.min_l by lia. auto.
  - rewrite Z.min_r, Nat2Z.id, firstn_all, skipn_all, firstn_all2, skipn_all2 by lia. auto.
Qed.

Section BytesProofs.
  Context {A : Type}.

  Definition lens_ok (l : list (seg * list A)) : Prop :=
    Forall (fun sp => Z.of_nat (length (snd sp)) = s_body (fst sp)) l.

  Lemma sum_body_nonneg : forall segs, Forall (fun s => 0 <= s_body s) segs -> 0 <= sum_body segs.
  Proof. induction 1; cbn [sum_body fold_right]; [lia|]. fold (sum_body l). lia. Qed.

  Lemma attach_spec : forall segs (ptr : list A),
    Forall (fun s => 0 <= s_body s) segs -> sum_body segs = Z.of_nat (length ptr) ->
    map fst (attach segs ptr) = segs /\ concat (map snd (attach segs ptr)) = ptr /\ lens_ok (attach segs ptr).
  Proof.
    induction segs as [|s r IH]; intros ptr Hnn Hsum.
    - cbn in Hsum. destruct ptr; [|cbn in Hsum; lia]. repeat split; constructor.
    - inversion Hnn as [|? ? Hs Hr]; subst. cbn [sum_body fold_right] in Hsum. fold (sum_body r) in Hsum.
      pose proof (sum_body_nonneg r Hr) as Hr0.
      destruct (IH (skipn (Z.to_nat (s_body s)) ptr) Hr) as (I1 & I2 & I3).
      { rewrite skipn_length. lia. }
      cbn [attach map concat fst snd]. rewrite I1, I2, firstn_skipn. repeat split; auto.
      constructor; [|exact I3]. cbn [fst snd]. rewrite firstn_length. lia.
  Qed.

  Lemma data_segs_nonneg : forall mode fs segs, Forall (data_seg_ok mode fs) segs -> Forall (fun s => 0 <= s_body s) segs.
  Proof. intros mode fs segs H. eapply Forall_impl; [|exact H]. intros a [[Ha _] _]. lia. Qed.

  Lemma chunk_loop_bytes_nil : forall fuel mtu t mode, chunk_loop_bytes fuel mtu t mode (@nil A) = ([], 0, Ok).
  Proof. destruct fuel; reflexivity. Qed.

  Lemma chunk_lengths : forall b : list A, b <> [] ->
    0 < Z.of_nat (length (firstn (Z.to_nat C14_maxPDU) b)) /\
    Z.of_nat (length (firstn (Z.to_nat C14_maxPDU) b)) = Z.min (Z.of_nat (length b)) C14_maxPDU /\
    Z.of_nat (length (skipn (Z.to_nat C14_maxPDU) b)) =
      Z.of_nat (length b) - Z.of_nat (length (firstn (Z.to_nat C14_maxPDU) b)).
  Proof.
    intros b Hb. rewrite firstn_length, skipn_length. destruct b; [congruence|]. cbn [length]. consts. lia.
  Qed.

  (* induction along Write's loop: b is empty, or a chunk is cut off and the rest goes round with one unit of fuel less *)
  Lemma chunk_ind : forall P : nat -> list A -> Prop,
    (forall f, P f []) ->
    (forall f b, b <> [] -> P f (skipn (Z.to_nat C14_maxPDU) b) -> P (S f) b) ->
    forall f b, Z.of_nat (length b) <= Z.of_nat f * C14_maxPDU -> P f b.
  Proof.
    intros P Hnil Hstep. induction f as [|f IH]; intros b Hf.
    - assert (Hb : length b = O) by (consts; lia). destruct b; [apply Hnil|discriminate].
    - destruct (nil_or_not A b) as [->|Hb]; [apply Hnil|].
      apply Hstep; [exact Hb|]. apply IH. rewrite skipn_length. consts. lia.
  Qed.

  (* one round of Write's loop, the chunk written as a prefix of b *)
  Lemma chunk_loop_bytes_step : forall f mtu t mode (b : list A), b <> [] ->
    let c := firstn (Z.to_nat C14_maxPDU) b in
    chunk_loop_bytes (S f) mtu t mode b =
    match write_chunk mtu t mode (Z.of_nat (length c)) with
    | (segs, Ok) => let '(rest, w, o) := chunk_loop_bytes f mtu t mode (skipn (Z.to_nat C14_maxPDU) b) in
                    (attach segs c ++ rest, Z.of_nat (length c) + w, o)
    | (segs, o) => (attach segs c, 0, o)
    end.
  Proof.
    intros f mtu t mode b Hb c. cbn [chunk_loop_bytes]. destruct (chunk_lengths b Hb) as (H0 & Hmin & _).
    destruct (Z.leb_spec (Z.of_nat (length b)) 0); [lia|].
    rewrite Z.min_comm. destruct (firstn_skipn_zmin A b C14_maxPDU ltac:(consts; lia)) as [-> ->].
    rewrite Z.min_comm, <- Hmin. reflexivity.
  Qed.

  Lemma chunk_loop_bytes_spec : forall fuel mtu t mode fs (b : list A),
    frag_facts mtu t mode fs -> Z.of_nat (length b) <= Z.of_nat fuel * C14_maxPDU ->
    exists segs, chunk_loop_bytes fuel mtu t mode b = (segs, Z.of_nat (length b), Ok) /\
      map fst segs = fst (fst (chunk_loop fuel mtu t mode (Z.of_nat (length b)))) /\
      concat (map snd segs) = b /\ lens_ok segs.
  Proof.
    intros fuel mtu t mode fs b F. revert fuel b. apply chunk_ind.
    - intros f. rewrite chunk_loop_bytes_nil. exists []. destruct f; repeat split; constructor.
    - intros f b Hb (rest & Hrest & Hm & Hcat & Hl).
      rewrite (chunk_loop_bytes_step f mtu t mode b Hb). cbn [chunk_loop].
      destruct (chunk_lengths b Hb) as (H0 & Hmin & Hr).
      set (c := firstn (Z.to_nat C14_maxPDU) b) in *. set (r := skipn (Z.to_nat C14_maxPDU) b) in *.
      destruct (Z.leb_spec (Z.of_nat (length b)) 0); [lia|]. rewrite <- Hmin, <- Hr.
      destruct (write_chunk_spec mtu t mode fs (Z.of_nat (length c)) F ltac:(lia)) as (wsegs & -> & Hsum & Hall & _).
      rewrite Hrest.
      destruct (attach_spec wsegs c (data_segs_nonneg _ _ _ Hall) Hsum) as (A1 & A2 & A3).
      eexists. split; [replace (Z.of_nat (length b)) with (Z.of_nat (length c) + Z.of_nat (length r)) by lia; reflexivity|].
      destruct (chunk_loop f mtu t mode (Z.of_nat (length r))) as [[rs w] o]. cbn [fst] in *.
      rewrite !map_app, concat_app, A1, A2, Hm, Hcat. unfold c, r. rewrite firstn_skipn.
      repeat split; auto. apply Forall_app. split; assumption.
  Qed.

  Lemma plan_write_concat : forall is_client first mtu t mode (b : list A),
    mode_ok mode -> transport_ok t -> (t = C14_TransportPacket -> mtu_ok mtu) ->
    exists segs, plan_write is_client first mtu t mode b = (segs, Z.of_nat (length b), Ok) /\
      concat (map snd segs) = b /\
      map fst segs = fst (fst (write is_client first mtu t mode (Z.of_nat (length b)))) /\
      lens_ok segs.
  Proof.
    intros is_client first mtu t mode b Hm Ht Hmtu.
    destruct (frag_facts_in_range mtu t mode Hm Ht Hmtu) as [fs F].
    set (n := Z.of_nat (length b)).
    destruct (chunk_loop_bytes_spec (chunk_fuel n) mtu t mode fs b F (chunk_fuel_enough n (Nat2Z.is_nonneg _)))
      as (segs & Hc & Hmap & Hcat & Hl).
    fold n in Hc, Hmap. unfold plan_write, write. fold n.
    destruct (is_client && first).
    2:{ exists segs. repeat split; auto. }
    set (piggy := (mode =? C14_ModeOff) && (n <=? C14_MaxSessionOpenPayload)).
    destruct (Z.gtb_spec (if piggy then n else 0) 0) as [Hp|Hp].
    - destruct piggy; [|lia]. eexists. split; [reflexivity|]. cbn [map snd fst concat]. rewrite app_nil_r.
      repeat split; auto. constructor; [|constructor]. cbn [fst snd s_body]. reflexivity.
    - rewrite Hc. destruct (chunk_loop (chunk_fuel n) mtu t mode n) as [[r w] o]. cbn [fst] in *.
      eexists. split; [reflexivity|]. cbn [map snd fst concat app]. rewrite Hmap, Hcat.
      repeat split; auto. constructor; [|exact Hl]. cbn [fst snd s_body length].
      destruct piggy; lia.
  Qed.
End BytesProofs.

(* the hypotheses of the C14 theorems can be met: concrete writes *)
Example ex_mtu_1400_off :
  let '(segs, w, o) := write true true 1400 C14_TransportPacket C14_ModeOff 4000 in
  map s_body segs = [0; 1312; 1312; 1312; 64] /\ map s_frag segs = [0; 3; 2; 1; 0] /\ w = 4000 /\ o = Ok /\
  dgram_len (nth 1 segs (control_seg KAck)) 0 0 = 1400 /\
  draws_okb 1400 C14_TransportPacket None None (nth 4 segs (control_seg KAck)) 255 255 = true /\
  dgram_len (nth 4 segs (control_seg KAck)) 255 255 = 662.
Proof. vm_compute. repeat split; reflexivity. Qed.

Example ex_mtu_1280_le32 :
  let '(segs, w, o) := write false false 1280 C14_TransportPacket C14_Mode32 1000 in
  map s_body segs = [596; 404] /\ map s_plen segs = [1192; 808] /\ map s_kind segs = [KDataLE; KDataLE] /\
  dgram_len (nth 0 segs (control_seg KAck)) 0 0 = 1280 /\ o = Ok /\ w = 1000.
Proof. vm_compute. repeat split; reflexivity. Qed.

Example ex_piggyback :
  write true true 1280 C14_TransportPacket C14_ModeOff 1024 = ([mkSeg KOpenReq 0 1024 0 1024], 1024, Ok) /\
  dgram_len (mkSeg KOpenReq 0 1024 0 1024) 0 168 = 1280 /\
  draws_okb 1280 C14_TransportPacket None None (mkSeg KOpenReq 0 1024 0 1024) 0 168 = true /\
  draws_okb 1280 C14_TransportPacket None None (mkSeg KOpenReq 0 1024 0 1024) 0 169 = false.
Proof. vm_compute. repeat split; reflexivity. Qed.

Example ex_plan_concat :
  let b := [1; 2; 3; 4; 5]%N in
  let '(segs, w, o) := plan_write false false 1280 C14_TransportPacket C14_Mode32 b in
  map snd segs = [b] /\ w = 5 /\ o = Ok.
Proof. vm_compute. repeat split; reflexivity. Qed.

(* out of range the model shows the code's other failure modes (not claimed by C14) *)
Example ex_out_of_range :
  snd (write_chunk 88 C14_TransportPacket C14_ModeOff 10) = Panic /\
  snd (write_chunk 95 C14_TransportPacket C14_Mode32 10) = Err /\
  (let '(segs, o) := write_chunk 96 C14_TransportPacket C14_Mode32 2000 in
   o = Ok /\ length segs = 500%nat /\ s_frag (nth 0 segs (control_seg KAck)) = 243).
Proof. vm_compute. repeat split; reflexivity. Qed.
