(* Proofs about model/Socks5Auth.v (property C11).  Each parsing stage (greeting, sub-negotiation) has
   a forward lemma, what it returns on input of the expected form, and a dichotomy: the input has that
   form, or the stage gives up without writing a reply.  The method selection between them has a case
   table, [serve] its equation where the listener authenticates (elsewhere it is
   C11_delegated_placements).  Beyond evaluation on concrete inputs the proofs here use the model
   only through these. *)
From Coq Require Import NArith PeanoNat List Bool.
From M Require Import model.Socks5Auth.
Import ListNotations.
Open Scope N_scope.

Lemma read_full_some : forall n i a b,
  read_full n i = Some (a, b) -> i = a ++ b /\ length a = n.
Proof.
  unfold read_full; intros n i a b H.
  destruct (length i <? n)%nat eqn:E; [discriminate|].
  apply Nat.ltb_ge in E. injection H as <- <-.
  split; [symmetry; apply firstn_skipn | apply firstn_length_le; exact E].
Qed.

Lemma read_full_app : forall a b, read_full (length a) (a ++ b) = Some (a, b).
Proof.
  intros a b. unfold read_full.
  rewrite app_length, (proj2 (Nat.ltb_ge _ _) (Nat.le_add_r _ _)).
  rewrite firstn_app, skipn_app, Nat.sub_diag, firstn_all, skipn_all.
  cbn [firstn skipn app]. rewrite app_nil_r. reflexivity.
Qed.

Lemma read_full_none : forall n i, read_full n i = None -> (length i < n)%nat.
Proof.
  unfold read_full; intros n i H. destruct (length i <? n)%nat eqn:E; [|discriminate].
  apply Nat.ltb_lt; exact E.
Qed.

Lemma bytes_eqb_eq : forall a b, bytes_eqb a b = true <-> a = b.
Proof.
  induction a as [|x a IH]; destruct b as [|y b]; cbn [bytes_eqb]; split; intro H;
    try reflexivity; try discriminate.
  - apply andb_true_iff in H as [Hx Ha]. apply N.eqb_eq in Hx. apply IH in Ha. subst. reflexivity.
  - injection H as -> ->. rewrite N.eqb_refl. apply IH. reflexivity.
Qed.

Lemma cred_match_In : forall creds u p, cred_match creds u p = true <-> In (u, p) creds.
Proof.
  intros creds u p. unfold cred_match. rewrite existsb_exists. split.
  - intros [[cu cp] [Hin H]]. simpl in H. apply andb_true_iff in H as [H1 H2].
    apply bytes_eqb_eq in H1. apply bytes_eqb_eq in H2. subst. exact Hin.
  - intro Hin. exists (u, p). split; [exact Hin|]. simpl.
    apply andb_true_iff; split; apply bytes_eqb_eq; reflexivity.
Qed.

Lemma has_In : forall m l, has m l = true <-> In m l.
Proof.
  intros m l. unfold has. rewrite existsb_exists. split.
  - intros [x [Hin H]]. apply N.eqb_eq in H. subst. exact Hin.
  - intro Hin. exists m. split; [exact Hin | apply N.eqb_refl].
Qed.

Lemma has_false_not_In : forall m l, has m l = false -> ~ In m l.
Proof. intros m l H Hin. apply has_In in Hin. congruence. Qed.

Lemma is_nil_false : forall A (l : list A), l <> [] -> is_nil l = false.
Proof. intros A [|x l] H; [congruence | reflexivity]. Qed.

Lemma truncated_fails : forall w, replies (truncated w) = w /\ out (truncated w) <> Authenticated.
Proof. split; [reflexivity | discriminate]. Qed.

Lemma rejected_fails : forall w i, replies (rejected w i) = w /\ out (rejected w i) <> Authenticated.
Proof. split; [reflexivity | discriminate]. Qed.

Lemma subneg_on_presented : forall creds w ulen plen u p r,
  length u = N.to_nat ulen -> length p = N.to_nat plen ->
  subneg creds w ([SUBVER; ulen] ++ u ++ [plen] ++ p ++ r) =
  if cred_match creds u p
  then {| replies := w ++ [[SUBVER; ST_OK]]; out := Authenticated; rest := r |}
  else rejected (w ++ [[SUBVER; ST_FAIL]]) r.
Proof.
  intros creds w ulen plen u p r Lu Lp. unfold subneg. cbn [app].
  rewrite N.eqb_refl. cbn [negb].
  rewrite <- Lu, read_full_app. cbn [app].
  rewrite <- Lp, read_full_app. reflexivity.
Qed.

Lemma subneg_cases : forall creds w i,
  (exists ulen plen u p r,
     i = [SUBVER; ulen] ++ u ++ [plen] ++ p ++ r /\ length u = N.to_nat ulen /\ length p = N.to_nat plen) \/
  (replies (subneg creds w i) = w /\ out (subneg creds w i) <> Authenticated).
Proof.
  intros creds w i. unfold subneg.
  destruct i as [|v i1]; [right; apply truncated_fails|].
  destruct (v =? SUBVER) eqn:Ev; [|right; apply rejected_fails].
  destruct i1 as [|ulen i2]; [right; apply truncated_fails|].
  destruct (read_full (N.to_nat ulen) i2) as [[u i3]|] eqn:Eu; [|right; apply truncated_fails].
  destruct i3 as [|plen i4]; [right; apply truncated_fails|].
  destruct (read_full (N.to_nat plen) i4) as [[p i5]|] eqn:Ep; [|right; apply truncated_fails].
  left. apply N.eqb_eq in Ev as ->.
  apply read_full_some in Eu as [-> Lu]. apply read_full_some in Ep as [-> Lp].
  exists ulen, plen, u, p, i5. auto.
Qed.

Lemma select_nocreds : forall legacy methods r,
  select legacy [] methods r =
  if has M_NOAUTH methods
  then {| replies := [[VER; M_NOAUTH]]; out := Authenticated; rest := r |}
  else rejected (if has M_USERPASS methods then [] else [[VER; M_NONE]]) r.
Proof.
  intros. unfold select.
  destruct (has M_NOAUTH methods), (has M_USERPASS methods), legacy; reflexivity.
Qed.

Lemma select_creds : forall creds methods r,
  creds <> [] ->
  select false creds methods r =
  if has M_USERPASS methods
  then subneg creds [[VER; M_USERPASS]] r
  else rejected (if has M_NOAUTH methods then [] else [[VER; M_NONE]]) r.
Proof.
  intros creds methods r Hc. unfold select. rewrite (is_nil_false _ _ Hc).
  destruct (has M_NOAUTH methods), (has M_USERPASS methods); reflexivity.
Qed.

Lemma select_legacy : forall creds methods r,
  select true creds methods r =
  if has M_NOAUTH methods && has M_USERPASS methods && negb (is_nil creds)
  then {| replies := [[VER; M_NOAUTH]]; out := Authenticated; rest := r |}
  else select false creds methods r.
Proof.
  intros. unfold select.
  destruct (has M_NOAUTH methods); [destruct (has M_USERPASS methods); [destruct (is_nil creds)|]|];
    reflexivity.
Qed.

Lemma handle_auth_on_greeting : forall i methods r,
  greets i methods r ->
  forall legacy creds, handle_auth legacy creds i = select legacy creds methods r.
Proof.
  intros i methods r (n & -> & Lm & Hn) legacy creds. unfold handle_auth. cbn [app].
  rewrite N.eqb_refl. cbn [negb].
  apply N.eqb_neq in Hn. rewrite Hn.
  rewrite <- Lm, read_full_app. reflexivity.
Qed.

(* stated for every rule and credential list at once: that the two rules agree off a greeting is what
   [fix_is_minimal] needs *)
Lemma handle_auth_cases : forall i,
  (exists methods r, greets i methods r /\
     forall legacy creds, handle_auth legacy creds i = select legacy creds methods r) \/
  (exists res, (replies res = [] /\ out res <> Authenticated) /\
     forall legacy creds, handle_auth legacy creds i = res).
Proof.
  intro i. unfold handle_auth.
  destruct i as [|v i1].
  { right. exists (truncated []). split; [apply truncated_fails | reflexivity]. }
  destruct (v =? VER) eqn:Ev.
  2: { right. exists (rejected [] i1). split; [apply rejected_fails | reflexivity]. }
  destruct i1 as [|n i2].
  { right. exists (truncated []). split; [apply truncated_fails | reflexivity]. }
  destruct (n =? 0) eqn:En.
  { right. exists (rejected [] i2). split; [apply rejected_fails | reflexivity]. }
  destruct (read_full (N.to_nat n) i2) as [[methods i3]|] eqn:Em.
  2: { right. exists (truncated []). split; [apply truncated_fails | reflexivity]. }
  left. apply N.eqb_eq in Ev as ->. apply N.eqb_neq in En.
  apply read_full_some in Em as [-> Lm].
  exists methods, i3. split; [exists n; auto | reflexivity].
Qed.

Lemma handle_auth_on_presented : forall (creds : list cred) i u p r,
  creds <> [] -> presents i u p r ->
  handle_auth false creds i =
  if cred_match creds u p
  then {| replies := [[VER; M_USERPASS]; [SUBVER; ST_OK]]; out := Authenticated; rest := r |}
  else {| replies := [[VER; M_USERPASS]; [SUBVER; ST_FAIL]]; out := Rejected; rest := r |}.
Proof.
  intros creds i u p r Hc (n & methods & ulen & plen & -> & Lm & Hup & Lu & Lp).
  rewrite (handle_auth_on_greeting _ methods ([SUBVER; ulen] ++ u ++ [plen] ++ p ++ r)).
  - apply has_In in Hup. rewrite (select_creds _ _ _ Hc), Hup.
    apply subneg_on_presented; assumption.
  - exists n. repeat split; [exact Lm|].
    intros ->. destruct methods; [destruct Hup | discriminate Lm].
Qed.

Lemma authenticated_presents : forall creds i,
  creds <> [] -> out (handle_auth false creds i) = Authenticated -> exists u p r, presents i u p r.
Proof.
  intros creds i Hc Ha.
  destruct (handle_auth_cases i) as [(methods & i3 & G & E) | (res & [_ Hf] & E)]; rewrite E in Ha;
    [|contradiction].
  rewrite (select_creds _ _ _ Hc) in Ha.
  destruct (has M_USERPASS methods) eqn:Eup; [|discriminate].
  destruct (subneg_cases creds [[VER; M_USERPASS]] i3)
    as [(ulen & plen & u & p & r & -> & Lu & Lp) | [_ Hf]]; [|contradiction].
  destruct G as (n & -> & Lm & _). apply has_In in Eup.
  exists u, p, r, n, methods, ulen, plen. auto.
Qed.

Lemma auth_required : forall creds i,
  creds <> [] ->
  out (handle_auth false creds i) = Authenticated ->
  exists u p,
    In (u, p) creds /\ presents i u p (rest (handle_auth false creds i)) /\
    replies (handle_auth false creds i) = [[VER; M_USERPASS]; [SUBVER; ST_OK]].
Proof.
  intros creds i Hc Ha.
  destruct (authenticated_presents creds i Hc Ha) as (u & p & r & Hp).
  rewrite (handle_auth_on_presented creds i u p r Hc Hp) in Ha |- *.
  destruct (cred_match creds u p) eqn:Ec; [|discriminate].
  apply cred_match_In in Ec. exists u, p. auto.
Qed.

Lemma valid_pair_accepted : forall (creds : list cred) i u p r,
  In (u, p) creds -> presents i u p r ->
  handle_auth false creds i =
  {| replies := [[VER; M_USERPASS]; [SUBVER; ST_OK]]; out := Authenticated; rest := r |}.
Proof.
  intros creds i u p r Hin Hp.
  assert (Hc : creds <> []) by (intros ->; destruct Hin).
  rewrite (handle_auth_on_presented creds i u p r Hc Hp).
  apply cred_match_In in Hin. rewrite Hin. reflexivity.
Qed.

Lemma pair_membership_exact : forall (creds : list cred) i u p r,
  creds <> [] -> presents i u p r ->
  (out (handle_auth false creds i) = Authenticated <-> In (u, p) creds).
Proof.
  intros creds i u p r Hc Hp. rewrite (handle_auth_on_presented creds i u p r Hc Hp).
  rewrite <- cred_match_In. destruct (cred_match creds u p); cbn [out]; split; congruence.
Qed.

Lemma serve_local : forall legacy use_proxy csa creds i,
  local_auth use_proxy csa = true ->
  serve legacy use_proxy csa creds i =
  let h := handle_auth legacy creds i in
  match out h with
  | Authenticated => {| s_replies := replies h; s_dialed := use_proxy; s_next := Some (rest h) |}
  | _ => {| s_replies := replies h; s_dialed := false; s_next := None |}
  end.
Proof. intros legacy use_proxy csa creds i Hl. unfold serve. rewrite Hl. reflexivity. Qed.

Lemma pair_boundary_matters : forall (creds : list cred) sep u p u' p' i i' r,
  In (u, p) creds -> ~ In (u', p') creds ->
  u ++ sep ++ p = u' ++ sep ++ p' ->
  presents i u p r -> presents i' u' p' r ->
  out (handle_auth false creds i) = Authenticated /\
  handle_auth false creds i' =
    {| replies := [[VER; M_USERPASS]; [SUBVER; ST_FAIL]]; out := Rejected; rest := r |} /\
  s_next (serve false true true creds i') = None /\ s_dialed (serve false true true creds i') = false.
Proof.
  intros creds sep u p u' p' i i' r Hin Hnin _ Hp Hp'.
  assert (Hc : creds <> []) by (intros ->; destruct Hin).
  rewrite (valid_pair_accepted creds i u p r Hin Hp), (serve_local false true true creds i' eq_refl),
    (handle_auth_on_presented creds i' u' p' r Hc Hp').
  destruct (cred_match creds u' p') eqn:Ec; [apply cred_match_In in Ec; contradiction|].
  repeat split; reflexivity.
Qed.

Lemma noauth_mode_accepts : forall legacy i,
  (forall methods r, greets i methods r -> In M_NOAUTH methods ->
     handle_auth legacy [] i = {| replies := [[VER; M_NOAUTH]]; out := Authenticated; rest := r |}) /\
  (out (handle_auth legacy [] i) = Authenticated ->
     exists methods, greets i methods (rest (handle_auth legacy [] i)) /\ In M_NOAUTH methods /\
                     replies (handle_auth legacy [] i) = [[VER; M_NOAUTH]]).
Proof.
  intros legacy i. split.
  - intros methods r G Hna. apply has_In in Hna.
    rewrite (handle_auth_on_greeting _ _ _ G), select_nocreds, Hna. reflexivity.
  - intro Ha.
    destruct (handle_auth_cases i) as [(methods & r & G & E) | (res & [_ Hf] & E)]; rewrite E in Ha |- *;
      [|contradiction].
    rewrite select_nocreds in Ha |- *.
    destruct (has M_NOAUTH methods) eqn:Ena; [|discriminate].
    apply has_In in Ena. exists methods. auto.
Qed.

Lemma noauth_mode_refuses_userpass : forall legacy i,
  ~ In [VER; M_USERPASS] (replies (handle_auth legacy [] i)) /\
  (forall methods r, greets i methods r -> ~ In M_NOAUTH methods ->
     out (handle_auth legacy [] i) = Rejected /\
     (In M_USERPASS methods -> replies (handle_auth legacy [] i) = [])).
Proof.
  intros legacy i. split.
  - destruct (handle_auth_cases i) as [(methods & r & _ & E) | (res & [Hr _] & E)]; rewrite E.
    + rewrite select_nocreds.
      destruct (has M_NOAUTH methods), (has M_USERPASS methods);
        cbn [replies rejected In]; intuition discriminate.
    + rewrite Hr. intros [].
  - intros methods r G Hna.
    rewrite (handle_auth_on_greeting _ _ _ G), select_nocreds.
    destruct (has M_NOAUTH methods) eqn:Ena; [apply has_In in Ena; contradiction|].
    split; [reflexivity|]. intro Hup. apply has_In in Hup. rewrite Hup. reflexivity.
Qed.

Lemma select_replies_documented : forall legacy creds methods r,
  In (replies (select legacy creds methods r)) documented_replies.
Proof.
  intros legacy creds methods r.
  (* entry k of [documented_replies] is k times [in_cons], then [in_eq]:
     0 nothing; 1 05 FF; 2 05 00; 3 05 02; 4 05 02, 01 00; 5 05 02, 01 01 *)
  assert (F : In (replies (select false creds methods r)) documented_replies).
  { unfold documented_replies. destruct creds as [|c creds].
    - rewrite select_nocreds.
      destruct (has M_NOAUTH methods); [do 2 apply in_cons; apply in_eq|].
      destruct (has M_USERPASS methods); [apply in_eq | apply in_cons, in_eq].
    - rewrite select_creds by discriminate.
      destruct (has M_USERPASS methods).
      + destruct (subneg_cases (c :: creds) [[VER; M_USERPASS]] r)
          as [(ulen & plen & u & p & r' & -> & Lu & Lp) | [E _]].
        * rewrite subneg_on_presented by assumption.
          destruct (cred_match (c :: creds) u p); [do 4 apply in_cons | do 5 apply in_cons]; apply in_eq.
        * rewrite E. do 3 apply in_cons. apply in_eq.
      + destruct (has M_NOAUTH methods); [apply in_eq | apply in_cons, in_eq]. }
  destruct legacy; [|exact F]. rewrite select_legacy.
  destruct (has M_NOAUTH methods && has M_USERPASS methods && negb (is_nil creds)); [|exact F].
  unfold documented_replies. do 2 apply in_cons. apply in_eq.
Qed.

Lemma handle_auth_replies_documented : forall legacy creds i,
  In (replies (handle_auth legacy creds i)) documented_replies.
Proof.
  intros legacy creds i.
  destruct (handle_auth_cases i) as [(methods & r & _ & E) | (res & [Hr _] & E)]; rewrite E.
  - apply select_replies_documented.
  - rewrite Hr. left; reflexivity.
Qed.

Lemma documented_two_bytes : Forall (Forall (fun w => length w = 2%nat)) documented_replies.
Proof. repeat constructor. Qed.

Definition witness_creds : list cred := [([117; 115; 101; 114], [112; 97; 115; 115])].   (* "user" / "pass" *)
Definition witness_greeting : list byte := [5; 2; 0; 2].

Lemma legacy_refuted :
  exists creds i,
    creds <> [] /\
    (forall u p r, ~ presents i u p r) /\
    forall req,
      handle_auth true creds (i ++ req) = {| replies := [[VER; M_NOAUTH]]; out := Authenticated; rest := req |} /\
      serve true true true creds (i ++ req) = {| s_replies := [[VER; M_NOAUTH]]; s_dialed := true; s_next := Some req |}.
Proof.
  exists witness_creds, witness_greeting.
  split; [discriminate|]. split.
  - (* however long the method list, the sub-negotiation header 01 ulen does not fit behind it *)
    intros u p r (n & methods & ulen & plen & Ei & _).
    destruct methods as [|m0 [|m1 [|m2 methods]]]; discriminate Ei.
  - intro req. split; reflexivity.
Qed.

Lemma witness_fixed :
  handle_auth false witness_creds witness_greeting = {| replies := [[VER; M_USERPASS]]; out := Truncated; rest := [] |}.
Proof. reflexivity. Qed.

Lemma fix_is_minimal : forall creds i,
  handle_auth true creds i <> handle_auth false creds i ->
  creds <> [] /\ exists methods r, greets i methods r /\ In M_NOAUTH methods /\ In M_USERPASS methods.
Proof.
  intros creds i H.
  destruct (handle_auth_cases i) as [(methods & r & G & E) | (res & _ & E)]; rewrite !E in H;
    [|contradiction].
  rewrite select_legacy in H.
  destruct (has M_NOAUTH methods && has M_USERPASS methods && negb (is_nil creds)) eqn:Eb; [|contradiction].
  apply andb_true_iff in Eb as [Eb Hc]. apply andb_true_iff in Eb as [Ena Eup].
  split; [intros ->; discriminate Hc|].
  exists methods, r. rewrite <- !has_In. auto.
Qed.

(* non-vacuity and evaluation on concrete inputs;
   ex_good: greeting 05 01 02, then 01 04 "user" 04 "pass", then a request *)
Definition ex_request : list byte := [5; 1; 0; 1; 1; 2; 3; 4; 0; 80].
Definition ex_good : list byte := [5; 1; 2; 1; 4; 117; 115; 101; 114; 4; 112; 97; 115; 115] ++ ex_request.

Example ex_good_presents : presents ex_good [117; 115; 101; 114] [112; 97; 115; 115] ex_request.
Proof. exists 1, [2], 4, 4. repeat split; try reflexivity. left; reflexivity. Qed.

Example ex_good_authenticated :
  handle_auth false witness_creds ex_good =
  {| replies := [[5; 2]; [1; 0]]; out := Authenticated; rest := ex_request |}.
Proof. reflexivity. Qed.

Example ex_good_served :
  serve false true true witness_creds ex_good =
  {| s_replies := [[5; 2]; [1; 0]]; s_dialed := true; s_next := Some ex_request |}.
Proof. reflexivity. Qed.

Example ex_wrong_password :
  serve false true true witness_creds ([5; 1; 2; 1; 4; 117; 115; 101; 114; 4; 112; 97; 115; 116] ++ ex_request) =
  {| s_replies := [[5; 2]; [1; 1]]; s_dialed := false; s_next := None |}.
Proof. reflexivity. Qed.

Example ex_both_methods_fixed :
  serve false true true witness_creds ([5; 2; 0; 2] ++ ex_request) =
  {| s_replies := [[5; 2]]; s_dialed := false; s_next := None |}.
Proof. reflexivity. Qed.

Example ex_nocreds_noauth :
  handle_auth false [] ([5; 1; 0] ++ ex_request) = {| replies := [[5; 0]]; out := Authenticated; rest := ex_request |}.
Proof. reflexivity. Qed.
Example ex_nocreds_userpass :
  handle_auth false [] ([5; 1; 2] ++ ex_request) = {| replies := []; out := Rejected; rest := ex_request |}.
Proof. reflexivity. Qed.
Example ex_nocreds_both :
  handle_auth false [] ([5; 2; 0; 2] ++ ex_request) = {| replies := [[5; 0]]; out := Authenticated; rest := ex_request |}.
Proof. reflexivity. Qed.
Example ex_greets : greets ([5; 2; 0; 2] ++ ex_request) [0; 2] ex_request.
Proof. exists 2. repeat split; try reflexivity. discriminate. Qed.

(* witness: ("alice","wonder:land") configured; ("alice:wonder","land") has the same "user:password" string *)
Definition ex_alice : list byte := [97; 108; 105; 99; 101].
Definition ex_wonder : list byte := [119; 111; 110; 100; 101; 114].
Definition ex_land : list byte := [108; 97; 110; 100].
Definition ex_colon : list byte := [58].
Definition ex_boundary_creds : list cred := [(ex_alice, ex_wonder ++ ex_colon ++ ex_land)].
Definition ex_boundary_good : list byte :=
  [5; 1; 2; 1; 5] ++ ex_alice ++ [11] ++ (ex_wonder ++ ex_colon ++ ex_land) ++ ex_request.
Definition ex_boundary_shifted : list byte :=
  [5; 1; 2; 1; 12] ++ (ex_alice ++ ex_colon ++ ex_wonder) ++ [4] ++ ex_land ++ ex_request.

Example ex_boundary_same_key :
  ex_alice ++ ex_colon ++ (ex_wonder ++ ex_colon ++ ex_land) = (ex_alice ++ ex_colon ++ ex_wonder) ++ ex_colon ++ ex_land.
Proof. reflexivity. Qed.
Example ex_boundary_good_presents : presents ex_boundary_good ex_alice (ex_wonder ++ ex_colon ++ ex_land) ex_request.
Proof. exists 1, [2], 5, 11. repeat split; try reflexivity. left; reflexivity. Qed.
Example ex_boundary_shifted_presents : presents ex_boundary_shifted (ex_alice ++ ex_colon ++ ex_wonder) ex_land ex_request.
Proof. exists 1, [2], 12, 4. repeat split; try reflexivity. left; reflexivity. Qed.
Example ex_boundary_good_accepted :
  handle_auth false ex_boundary_creds ex_boundary_good =
  {| replies := [[5; 2]; [1; 0]]; out := Authenticated; rest := ex_request |}.
Proof. reflexivity. Qed.
Example ex_boundary_shifted_refused :
  serve false true true ex_boundary_creds ex_boundary_shifted =
  {| s_replies := [[5; 2]; [1; 1]]; s_dialed := false; s_next := None |}.
Proof. reflexivity. Qed.
