(* The header parser, component by component (read_port_bytes, read_addr_ip4/ip6/name), and its stability: the
   consumed bytes alone decide the address (read_addr_stable, parse_stable).  That is what lets a header enter the
   relay's memo before the payload it will precede is known; [good] is the invariant of the memo. *)
From Coq Require Import NArith ZArith List Bool Lia.
From M Require Import gen.Consts model.Frame model.Socks5Udp proofs.FrameProofs.
Import ListNotations.
Open Scope N_scope.

(* does not compile once a regenerated constant changes *)
Lemma socks5udp_consts_ok :
  ATYP4 = 1 /\ ATYPD = 3 /\ ATYP6 = 4 /\ SHORT = 6 /\ WSHORT = 6 /\ WROOM = 256.
Proof. vm_compute. repeat split; reflexivity. Qed.

Lemma splitN_0 : forall l, splitN l 0 = Some ([], l).
Proof. destruct l; reflexivity. Qed.

Lemma splitN_cons : forall x t n, n <> 0 ->
  splitN (x :: t) n = match splitN t (n - 1) with Some (a, r) => Some (x :: a, r) | None => None end.
Proof. intros x t n H. cbn [splitN]. rewrite (proj2 (N.eqb_neq n 0) H). reflexivity. Qed.

Lemma splitN_app : forall a r, splitN (a ++ r) (lenN a) = Some (a, r).
Proof.
  induction a as [|x a IH]; intros r; cbn [app lenN].
  - apply splitN_0.
  - rewrite splitN_cons, N.sub_1_r, N.pred_succ, IH by apply N.neq_succ_0. reflexivity.
Qed.

Lemma splitN_len : forall l n a r, splitN l n = Some (a, r) -> lenN a = n /\ l = a ++ r.
Proof.
  induction l as [|x t IH]; intros n a r H; destruct (N.eq_dec n 0) as [->|Hn].
  1, 3: rewrite splitN_0 in H; injection H as <- <-; split; reflexivity.
  - cbn [splitN] in H. rewrite (proj2 (N.eqb_neq n 0) Hn) in H. discriminate.
  - rewrite splitN_cons in H by exact Hn. destruct (splitN t (n - 1)) as [[a' r']|] eqn:E; [|discriminate].
    injection H as <- <-. destruct (IH _ _ _ E) as [Hl ->]. split; [cbn [lenN]; lia|reflexivity].
Qed.

Lemma eqbl_eq : forall a b, eqbl a b = true -> a = b.
Proof.
  induction a as [|x a IH]; destruct b as [|y b]; cbn [eqbl]; intros H; try discriminate; [reflexivity|].
  apply andb_true_iff in H. destruct H as [H1 H2]. apply N.eqb_eq in H1. rewrite (IH _ H2), H1. reflexivity.
Qed.

Lemma eqbl_refl : forall a, eqbl a a = true.
Proof. induction a as [|x a IH]; cbn [eqbl]; [reflexivity|rewrite N.eqb_refl, IH; reflexivity]. Qed.

Lemma key_eqb_eq : forall k1 k2, key_eqb k1 k2 = true -> k1 = k2.
Proof.
  intros [a p] [b q]. unfold key_eqb. cbn [fst snd]. intros H. apply andb_true_iff in H. destruct H as [H1 H2].
  apply eqbl_eq in H1. apply N.eqb_eq in H2. subst. reflexivity.
Qed.

Lemma to4_len : forall i v, to4 i = Some v -> lenN v = 4.
Proof.
  intros i v. unfold to4. destruct (N.eqb_spec (lenN i) 4) as [H4|H4].
  - intros H. injection H as <-. exact H4.
  - destruct (N.eqb_spec (lenN i) 16) as [H16|H16]; [|discriminate].
    destruct (splitN i 12) as [[p w]|] eqn:E; [|discriminate].
    destruct (eqbl p v4prefix); [|discriminate]. intros H. injection H as <-.
    destruct (splitN_len _ _ _ _ E) as [Hp ->]. rewrite lenN_app in H16. lia.
Qed.

Lemma to4_of_len4 : forall v, lenN v = 4 -> to4 v = Some v.
Proof. intros v H. unfold to4. rewrite H. reflexivity. Qed.

Lemma to16_len : forall i v, to16 i = Some v -> lenN v = 16.
Proof.
  intros i v. unfold to16. destruct (N.eqb_spec (lenN i) 4) as [H4|H4].
  - intros H. assert (Hv : v = v4prefix ++ i) by congruence. rewrite Hv, lenN_app, H4. reflexivity.
  - destruct (N.eqb_spec (lenN i) 16) as [H16|H16]; [|discriminate]. intros H. injection H as <-. exact H16.
Qed.

Lemma to4_none_to16 : forall i v, to4 i = None -> to16 i = Some v -> v = i.
Proof.
  intros i v. unfold to4, to16. destruct (lenN i =? 4); [discriminate|].
  destruct (lenN i =? 16); [|discriminate]. intros _ H. injection H as <-. reflexivity.
Qed.

Lemma norm_ip_idem : forall i, norm_ip (norm_ip i) = norm_ip i.
Proof.
  intros i. unfold norm_ip. destruct (to4 i) as [v|] eqn:E; [|rewrite E; reflexivity].
  rewrite (to4_of_len4 v (to4_len i v E)). reflexivity.
Qed.

(* what the parser reports for an address the writer accepts *)
Definition canon (a : addrspec) : addrspec :=
  match to4 (ip a) with
  | Some v4 => mkAddr [] v4 (port a)
  | None => match to16 (ip a) with
            | Some v6 => mkAddr [] v6 (port a)
            | None => mkAddr (fqdn a) [] (port a)
            end
  end.

Lemma read_port_bytes : forall f i c p rest, p < 65536 ->
  read_port f i c (portbytes p ++ rest) = inr (mkAddr f i p, c ++ portbytes p, rest).
Proof.
  intros f i c p rest H. unfold portbytes. cbn [app read_port]. rewrite N.mod_small, <- len_split by exact H.
  reflexivity.
Qed.

Lemma read_addr_ip4 : forall v, lenN v = 4 -> forall r,
  read_addr (ATYP4 :: v ++ r) = read_port [] v (ATYP4 :: v) r.
Proof. intros v H r. cbn [read_addr]. rewrite N.eqb_refl, <- H, splitN_app. reflexivity. Qed.

Lemma read_addr_ip6 : forall v, lenN v = 16 -> forall r,
  read_addr (ATYP6 :: v ++ r) = read_port [] v (ATYP6 :: v) r.
Proof.
  intros v H r. cbn [read_addr]. change (ATYP6 =? ATYP4) with false. cbn match.
  rewrite N.eqb_refl, <- H, splitN_app. reflexivity.
Qed.

Lemma read_addr_name : forall name r,
  read_addr (ATYPD :: lenN name :: name ++ r) = read_port name [] (ATYPD :: lenN name :: name) r.
Proof.
  intros name r. cbn [read_addr]. change (ATYPD =? ATYP4) with false. change (ATYPD =? ATYP6) with false. cbn match.
  rewrite N.eqb_refl, splitN_app. reflexivity.
Qed.

(* the port comes last in every address type; [c0] = the bytes before it, read as (f, i) *)
Lemma read_addr_port : forall f i c0 r2 a c rest, 2 <= lenN c0 ->
  (forall r, read_addr (c0 ++ r) = read_port f i c0 r) ->
  read_port f i c0 r2 = inr (a, c, rest) ->
  c0 ++ r2 = c ++ rest /\ 4 <= lenN c /\ forall rest', read_addr (c ++ rest') = inr (a, c, rest').
Proof.
  intros f i c0 r2 a c rest Hl Heq H. unfold read_port in H.
  destruct r2 as [|hi [|lo r]]; try discriminate. injection H as <- <- <-.
  split; [rewrite <- app_assoc; reflexivity|]. split; [rewrite lenN_app; cbn [lenN]; lia|].
  intros rest'. rewrite <- app_assoc, Heq. reflexivity.
Qed.

Lemma read_addr_stable : forall r a c rest, read_addr r = inr (a, c, rest) ->
  r = c ++ rest /\ 4 <= lenN c /\ forall rest', read_addr (c ++ rest') = inr (a, c, rest').
Proof.
  intros r a c rest. destruct r as [|t r1]; [discriminate|]. cbn [read_addr].
  destruct (N.eqb_spec t ATYP4) as [->|_]; [|destruct (N.eqb_spec t ATYP6) as [->|_];
    [|destruct (N.eqb_spec t ATYPD) as [->|_]; [|discriminate]]].
  - destruct (splitN r1 4) as [[v r2]|] eqn:E; [|discriminate]. destruct (splitN_len _ _ _ _ E) as [L ->].
    apply (read_addr_port _ _ (ATYP4 :: v)); [cbn [lenN]; lia|exact (read_addr_ip4 v L)].
  - destruct (splitN r1 16) as [[v r2]|] eqn:E; [|discriminate]. destruct (splitN_len _ _ _ _ E) as [L ->].
    apply (read_addr_port _ _ (ATYP6 :: v)); [cbn [lenN]; lia|exact (read_addr_ip6 v L)].
  - destruct r1 as [|l r2]; [discriminate|].
    destruct (splitN r2 l) as [[name r3]|] eqn:E; [|discriminate]. destruct (splitN_len _ _ _ _ E) as [<- ->].
    apply (read_addr_port _ _ (ATYPD :: lenN name :: name)); [cbn [lenN]; lia|exact (read_addr_name name)].
Qed.

Lemma read_addr_built : forall a h rest,
  port a < 65536 ->
  (to16 (ip a) = None -> lenN (fqdn a) <= 255) ->
  build_addr a = Some h ->
  read_addr (h ++ rest) = inr (canon a, h, rest).
Proof.
  intros a h rest Hp Hf Hb. unfold build_addr in Hb. unfold canon.
  destruct (to4 (ip a)) as [v4|] eqn:E4; [|destruct (to16 (ip a)) as [v6|] eqn:E6].
  - injection Hb as <-. cbn [app]. rewrite <- app_assoc, (read_addr_ip4 v4 (to4_len _ _ E4)). apply read_port_bytes, Hp.
  - injection Hb as <-. cbn [app]. rewrite <- app_assoc, (read_addr_ip6 v6 (to16_len _ _ E6)). apply read_port_bytes, Hp.
  - specialize (Hf eq_refl). destruct (fqdn a) as [|x name] in *; [discriminate|]. injection Hb as <-.
    change (N.succ (lenN name)) with (lenN (x :: name)). rewrite N.mod_small by lia.
    cbn [app]. rewrite <- app_assoc. etransitivity; [apply (read_addr_name (x :: name))|]. apply read_port_bytes, Hp.
Qed.

Lemma parse_read_addr : forall r a c rest, read_addr r = inr (a, c, rest) ->
  parse (0 :: 0 :: 0 :: r) = POk a (0 :: 0 :: 0 :: c) rest.
Proof.
  intros r a c rest H. destruct (read_addr_stable _ _ _ _ H) as (Hr & Hl & _).
  destruct socks5udp_consts_ok as (_ & _ & _ & HS & _).
  assert (Hlong : lenN (0 :: 0 :: 0 :: r) <=? SHORT = false).
  { apply N.leb_gt. rewrite Hr, HS. cbn [lenN]. rewrite lenN_app. lia. }
  unfold parse. rewrite Hlong. cbn [negb andb N.eqb]. rewrite H. reflexivity.
Qed.

Lemma parse_ok_inv : forall pkt a h p, parse pkt = POk a h p ->
  exists r c, pkt = 0 :: 0 :: 0 :: r /\ h = 0 :: 0 :: 0 :: c /\ read_addr r = inr (a, c, p).
Proof.
  intros pkt a h p H. unfold parse in H.
  destruct (lenN pkt <=? SHORT); [discriminate|].
  destruct pkt as [|b0 [|b1 [|b2 r]]]; try discriminate.
  destruct (N.eqb_spec b0 0) as [->|]; [|discriminate].
  destruct (N.eqb_spec b1 0) as [->|]; [|discriminate].
  destruct (N.eqb_spec b2 0) as [->|]; [|discriminate].
  cbn [andb negb] in H.
  destruct (read_addr r) as [e|[[a' c] rest]] eqn:E; [discriminate|]. injection H as <- <- <-.
  exists r, c. repeat split. exact E.
Qed.

Lemma parse_stable : forall pkt a h p, parse pkt = POk a h p ->
  pkt = h ++ p /\ forall p', parse (h ++ p') = POk a h p'.
Proof.
  intros pkt a h p H. destruct (parse_ok_inv _ _ _ _ H) as (r & c & -> & -> & Hr).
  destruct (read_addr_stable _ _ _ _ Hr) as (-> & _ & Hs).
  split; [reflexivity|]. intros p'. apply (parse_read_addr (c ++ p')), Hs.
Qed.

Lemma udp_header_roundtrip : forall a payload pkt,
  port a < 65536 ->
  (to16 (ip a) = None -> lenN (fqdn a) <= 255) ->
  build_dgram a payload = Some pkt ->
  exists hdr, build_dgram a [] = Some hdr /\ pkt = hdr ++ payload /\
              parse pkt = POk (canon a) hdr payload.
Proof.
  intros a payload pkt Hp Hf Hb. unfold build_dgram in *.
  destruct (build_addr a) as [h|] eqn:E; [|discriminate]. injection Hb as <-.
  exists (0 :: 0 :: 0 :: h). rewrite app_nil_r. repeat split.
  apply parse_read_addr, read_addr_built; assumption.
Qed.

Lemma ip_header_roundtrip : forall i p payload pkt, p < 65536 ->
  build_dgram (mkAddr [] i p) payload = Some pkt ->
  exists hdr, build_dgram (mkAddr [] i p) [] = Some hdr /\ pkt = hdr ++ payload /\
              parse pkt = POk (mkAddr [] (norm_ip i) p) hdr payload.
Proof.
  intros i p payload pkt Hp Hb.
  replace (mkAddr [] (norm_ip i) p) with (canon (mkAddr [] i p)).
  - apply udp_header_roundtrip; [exact Hp|intros _; apply N.le_0_l|exact Hb].
  - revert Hb. unfold build_dgram, build_addr, canon, norm_ip. cbn [ip fqdn port].
    destruct (to4 i) eqn:E4; [reflexivity|]. destruct (to16 i) eqn:E6; [|discriminate].
    rewrite (to4_none_to16 _ _ E4 E6). reflexivity.
Qed.

Lemma parse_short : forall pkt, lenN pkt <= SHORT -> parse pkt = PErr PNoData.
Proof. intros pkt H. unfold parse. rewrite (proj2 (N.leb_le _ _) H). reflexivity. Qed.

Lemma parse_reserved : forall b0 b1 b2 r, SHORT < lenN (b0 :: b1 :: b2 :: r) -> (b0 <> 0 \/ b1 <> 0) ->
  parse (b0 :: b1 :: b2 :: r) = PErr PInvalid.
Proof.
  intros b0 b1 b2 r H Hb. unfold parse. rewrite (proj2 (N.leb_gt _ _) H).
  rewrite <- !N.eqb_neq in Hb. destruct Hb as [-> | ->]; [|rewrite andb_false_r]; reflexivity.
Qed.

Lemma parse_fragment : forall b2 r, SHORT < lenN (0 :: 0 :: b2 :: r) -> b2 <> 0 ->
  parse (0 :: 0 :: b2 :: r) = PErr PUnsupported.
Proof.
  intros b2 r H Hb. unfold parse. rewrite (proj2 (N.leb_gt _ _) H), (proj2 (N.eqb_neq _ _) Hb). reflexivity.
Qed.

Lemma parse_bad_atyp : forall t r, SHORT < lenN (0 :: 0 :: 0 :: t :: r) ->
  t <> ATYP4 -> t <> ATYP6 -> t <> ATYPD ->
  parse (0 :: 0 :: 0 :: t :: r) = PErr PAddrType.
Proof.
  intros t r H H4 H6 Hd. unfold parse. rewrite (proj2 (N.leb_gt _ _) H). cbn [N.eqb andb negb read_addr].
  rewrite (proj2 (N.eqb_neq _ _) H4), (proj2 (N.eqb_neq _ _) H6), (proj2 (N.eqb_neq _ _) Hd). reflexivity.
Qed.

Lemma udp_header_rejects :
  (forall pkt, lenN pkt <= SHORT -> parse pkt = PErr PNoData) /\
  (forall b0 b1 b2 r, SHORT < lenN (b0 :: b1 :: b2 :: r) -> (b0 <> 0 \/ b1 <> 0) -> parse (b0 :: b1 :: b2 :: r) = PErr PInvalid) /\
  (forall b2 r, SHORT < lenN (0 :: 0 :: b2 :: r) -> b2 <> 0 -> parse (0 :: 0 :: b2 :: r) = PErr PUnsupported) /\
  (forall t r, SHORT < lenN (0 :: 0 :: 0 :: t :: r) -> t <> ATYP4 -> t <> ATYP6 -> t <> ATYPD ->
     parse (0 :: 0 :: 0 :: t :: r) = PErr PAddrType) /\
  (forall pkt a h p, parse pkt = POk a h p -> pkt = h ++ p /\ forall p', parse (h ++ p') = POk a h p').
Proof. exact (conj parse_short (conj parse_reserved (conj parse_fragment (conj parse_bad_atyp parse_stable)))). Qed.

Lemma relay_up : forall m pkt dns a h p, parse pkt = POk a h p ->
  relay_step m (Up pkt dns) =
  match resolve a dns with
  | Some dst => (memo_set m (key dst) h, OSend dst p)
  | None => (m, ODrop)
  end.
Proof. intros m pkt dns a h p H. unfold relay_step. rewrite H. reflexivity. Qed.

(* what becomes of a reply [x] = header ++ payload: handed to the tunnel if it fits a frame *)
Definition reply (x : list N) : rout := match write x with Some _ => OClient x | None => OStopWrite end.

Lemma relay_down_eq : forall m s payload,
  relay_step m (Down s payload) =
  match memo_get m (key s) with
  | Some h => (m, reply (h ++ payload))
  | None => match udp_addr_to_header s with
            | Some h => (memo_set m (key s) h, reply (h ++ payload))
            | None => (m, OPanic)
            end
  end.
Proof. reflexivity. Qed.

Lemma relay_dest_is_header : forall m pkt dns a h p,
  parse pkt = POk a h p ->
  pkt = h ++ p /\
  (forall v, to16 (ip a) = Some v ->
     relay_step m (Up pkt dns) = (memo_set m (key (mkUdp (ip a) (port a))) h, OSend (mkUdp (ip a) (port a)) p)) /\
  (forall i, to16 (ip a) = None -> fqdn a <> [] -> dns = Some i ->
     relay_step m (Up pkt dns) = (memo_set m (key (mkUdp i (port a))) h, OSend (mkUdp i (port a)) p)) /\
  (to16 (ip a) = None -> (fqdn a = [] \/ dns = None) -> relay_step m (Up pkt dns) = (m, ODrop)).
Proof.
  intros m pkt dns a h p H. split; [apply (parse_stable _ _ _ _ H)|].
  rewrite (relay_up m pkt dns a h p H). unfold resolve. repeat split.
  - intros v Hv. rewrite Hv. reflexivity.
  - intros i Hn Hf Hd. rewrite Hn. destruct (fqdn a); [congruence|]. rewrite Hd. reflexivity.
  - intros Hn [Hf|Hd]; rewrite Hn.
    + rewrite Hf. reflexivity.
    + destruct (fqdn a); [reflexivity|]. rewrite Hd. reflexivity.
Qed.

Lemma relay_bad_header_stops : forall m pkt dns e, parse pkt = PErr e ->
  relay_step m (Up pkt dns) = (m, OStopParse e).
Proof. intros m pkt dns e H. unfold relay_step. rewrite H. reflexivity. Qed.

Definition relay_memo (hist : list rin) : memo := fold_left (fun m i => fst (relay_step m i)) hist [].

Lemma relay_run_memo : forall hist, Forall (fun o => is_stop o = false) (fst (relay_run [] hist)) ->
  snd (relay_run [] hist) = relay_memo hist.
Proof.
  intros hist. unfold relay_memo. generalize ([] : memo).
  induction hist as [|i t IH]; intros m; cbn [relay_run fold_left]; [reflexivity|].
  destruct (relay_step m i) as [m1 o]. cbn [fst]. destruct (is_stop o) eqn:Eo.
  - intros H. apply Forall_inv in H. congruence.
  - specialize (IH m1). destruct (relay_run m1 t) as [os m2]. intros H. apply Forall_inv_tail in H. exact (IH H).
Qed.

(* the address [a] of a reply header designates the sender [s]:
   either it is literally the sender's IP and port (4-in-6 form aside), or it is the header the client itself
   used in an earlier datagram whose destination resolved to the sender's address *)
Definition designates (hist : list rin) (a : addrspec) (h : list N) (k : list N * N) : Prop :=
  (exists s, key s = k /\ fqdn a = [] /\ port a = uport s /\ norm_ip (ip a) = norm_ip (uip s) /\
             udp_addr_to_header s = Some h) \/
  (exists pkt dns pl dst, In (Up pkt dns) hist /\ parse pkt = POk a h pl /\ resolve a dns = Some dst /\ key dst = k).

(* the invariant of the memo; "forall p" because what is parsed in the end is the reply h ++ payload, with a
   payload not known when h enters the memo *)
Definition good (hist : list rin) (k : list N * N) (h : list N) : Prop :=
  exists a, (forall p, parse (h ++ p) = POk a h p) /\ designates hist a h k.

Definition wf_in (i : rin) : Prop := match i with Down s _ => uport s < 65536 | Up _ _ => True end.

Lemma designates_mono : forall hist i a h k, designates hist a h k -> designates (hist ++ [i]) a h k.
Proof.
  intros hist i a h k [H|(pkt & dns & pl & dst & Hin & H)]; [left; exact H|].
  right. exists pkt, dns, pl, dst. split; [apply in_or_app; left; exact Hin|exact H].
Qed.

Lemma fresh_header_good : forall hist s h, uport s < 65536 -> udp_addr_to_header s = Some h ->
  good hist (key s) h.
Proof.
  intros hist s h Hp Hh. destruct (ip_header_roundtrip _ _ [] h Hp Hh) as (hdr & _ & He & Hparse).
  rewrite app_nil_r in He. subst hdr.
  exists (mkAddr [] (norm_ip (uip s)) (uport s)). split; [apply (parse_stable _ _ _ _ Hparse)|].
  left. exists s. cbn [fqdn port ip]. rewrite norm_ip_idem. repeat split. exact Hh.
Qed.

Lemma memo_get_good : forall hist m k h, Forall (fun e => good hist (fst e) (snd e)) m ->
  memo_get m k = Some h -> good hist k h.
Proof.
  intros hist m k h H. induction H as [|[k' h'] t Hx Ht IH]; cbn [memo_get]; [discriminate|].
  destruct (key_eqb k' k) eqn:E.
  - intros Hs. injection Hs as <-. apply key_eqb_eq in E. subst k. exact Hx.
  - exact IH.
Qed.

Lemma relay_step_good : forall hist m i, wf_in i ->
  Forall (fun e => good hist (fst e) (snd e)) m ->
  Forall (fun e => good (hist ++ [i]) (fst e) (snd e)) (fst (relay_step m i)).
Proof.
  intros hist m i Hwi Hm.
  assert (Hold : Forall (fun e => good (hist ++ [i]) (fst e) (snd e)) m).
  { eapply Forall_impl; [|exact Hm]. intros e (a & Hs & Hd). exists a. split; [exact Hs|apply designates_mono, Hd]. }
  destruct i as [pkt dns|s payload].
  - destruct (parse pkt) as [a h p|e] eqn:Ep; [|rewrite (relay_bad_header_stops _ _ _ _ Ep); exact Hold].
    rewrite (relay_up _ _ dns _ _ _ Ep). destruct (resolve a dns) as [dst|] eqn:Er; [|exact Hold].
    constructor; [|exact Hold]. exists a. split; [apply (parse_stable _ _ _ _ Ep)|].
    right. exists pkt, dns, p, dst. rewrite in_app_iff. cbn [In]. auto.
  - rewrite relay_down_eq. destruct (memo_get m (key s)); [exact Hold|]. destruct (udp_addr_to_header s) as [h|] eqn:Eh; [|exact Hold].
    constructor; [|exact Hold]. apply fresh_header_good; assumption.
Qed.

Lemma relay_memo_good : forall hist, Forall wf_in hist ->
  Forall (fun e => good hist (fst e) (snd e)) (relay_memo hist).
Proof.
  intros hist. induction hist as [|i hist IH] using rev_ind; intros Hwf; [constructor|].
  apply Forall_app in Hwf. destruct Hwf as [Hwf Hi]. unfold relay_memo. rewrite fold_left_app.
  apply relay_step_good; [exact (Forall_inv Hi)|exact (IH Hwf)].
Qed.

Lemma client_reply : forall x pkt, reply x = OClient pkt -> pkt = x /\ write pkt = Some (frame pkt).
Proof.
  intros x pkt. unfold reply, write. destruct (MAXLEN <? lenN x) eqn:E; [discriminate|].
  intros H. injection H as <-. rewrite E. split; reflexivity.
Qed.

Lemma reply_header_is_sender : forall hist s payload m' pkt,
  Forall wf_in hist -> uport s < 65536 ->
  relay_step (relay_memo hist) (Down s payload) = (m', OClient pkt) ->
  exists a h, pkt = h ++ payload /\ parse pkt = POk a h payload /\ designates hist a h (key s) /\
              write pkt = Some (frame pkt).
Proof.
  intros hist s payload m' pkt Hwf Hp H. rewrite relay_down_eq in H.
  assert (Hg : exists h, good hist (key s) h /\ reply (h ++ payload) = OClient pkt).
  { destruct (memo_get (relay_memo hist) (key s)) as [h|] eqn:Em.
    - injection H as _ H. exists h. split; [|exact H].
      eapply memo_get_good; [apply relay_memo_good; exact Hwf|exact Em].
    - destruct (udp_addr_to_header s) as [h|] eqn:Eu; [|discriminate].
      injection H as _ H. exists h. split; [|exact H]. apply fresh_header_good; assumption. }
  destruct Hg as (h & (a & Hs & Hd) & Hr). apply client_reply in Hr. destruct Hr as [-> Hw].
  exists a, h. auto.
Qed.

Lemma firstN_all : forall l n, lenN l <= n -> firstN n l = l.
Proof.
  induction l as [|x t IH]; intros n H.
  - destruct n; reflexivity.
  - cbn [lenN] in H. cbn [firstN]. rewrite (proj2 (N.eqb_neq n 0)) by lia.
    rewrite IH by lia. reflexivity.
Qed.

Lemma firstN_len : forall l n, lenN (firstN n l) = N.min n (lenN l).
Proof.
  induction l as [|x t IH]; intros n.
  - destruct n; cbn [firstN lenN N.eqb]; lia.
  - cbn [firstN]. destruct (N.eqb_spec n 0) as [->|Hn]; cbn [lenN]; [lia|]. rewrite IH. lia.
Qed.

(* one equation because SHORT = WSHORT *)
Lemma wrapper_read_parse : forall cap b, wrapper_read cap b =
  match parse b with
  | POk a _ pl =>
      match fqdn a with _ :: _ => WErr WFqdn | [] => WOk (firstN cap pl) (mkUdp (ip a) (port a)) end
  | PErr e => if lenN b <=? WSHORT then WErr WShort else WErr (werr_of e)
  end.
Proof.
  intros cap b. destruct b as [|b0 [|b1 [|b2 r]]]; [reflexivity ..|].
  destruct socks5udp_consts_ok as (_ & _ & _ & HS & HW & _). unfold wrapper_read, parse. rewrite HS, HW.
  destruct (lenN (b0 :: b1 :: b2 :: r) <=? 6); [reflexivity|].
  destruct (negb ((b0 =? 0) && (b1 =? 0))); [reflexivity|]. destruct (negb (b2 =? 0)); [reflexivity|].
  destruct (read_addr r) as [e|[[a c] pl]]; reflexivity.
Qed.

Lemma wrapper_roundtrip : forall cap p to b,
  uport to < 65536 -> lenN p <= cap ->
  wrapper_write p to = Some b ->
  wrapper_read cap b = WOk p (mkUdp (norm_ip (uip to)) (uport to)).
Proof.
  intros cap p to b Hp Hc Hw. destruct (ip_header_roundtrip _ _ p b Hp Hw) as (hdr & _ & _ & Hparse).
  rewrite wrapper_read_parse, Hparse. cbn [fqdn ip port]. rewrite firstN_all by exact Hc. reflexivity.
Qed.

(* ReadFrom invents no bytes *)
Lemma wrapper_read_sound : forall cap b p from, wrapper_read cap b = WOk p from ->
  exists a h pl, parse b = POk a h pl /\ fqdn a = [] /\ p = firstN cap pl /\ from = mkUdp (ip a) (port a).
Proof.
  intros cap b p from H. rewrite wrapper_read_parse in H.
  destruct (parse b) as [a h pl|e]; [|destruct (lenN b <=? WSHORT); discriminate].
  destruct (fqdn a) eqn:Ef; [|discriminate]. injection H as <- <-. exists a, h, pl. auto.
Qed.

Example ex_headers :
  (* IPv4 1.2.3.4:53, payload with marker-like bytes *)
  build_dgram (mkAddr [] [1;2;3;4] 53) [0;255] = Some [0;0;0; 1; 1;2;3;4; 0;53; 0;255] /\
  parse [0;0;0; 1; 1;2;3;4; 0;53; 0;255] = POk (mkAddr [] [1;2;3;4] 53) [0;0;0;1;1;2;3;4;0;53] [0;255] /\
  (* domain "ab":65535, empty payload *)
  parse [0;0;0; 3; 2;97;98; 255;255] = POk (mkAddr [97;98] [] 65535) [0;0;0;3;2;97;98;255;255] [] /\
  (* v4-mapped IPv6 is written as IPv4 *)
  build_dgram (mkAddr [] [0;0;0;0;0;0;0;0;0;0;255;255;9;8;7;6] 1) [] = Some [0;0;0;1;9;8;7;6;0;1] /\
  (* fragment flag, bad type, short *)
  parse [0;0;1; 1; 1;2;3;4; 0;53] = PErr PUnsupported /\
  parse [0;0;0; 2; 1;2;3;4; 0;53] = PErr PAddrType /\
  parse [0;0;0; 1; 1;2;3;4; 0] = PErr PNoData /\
  parse [0;0;0; 1; 1;2] = PErr PNoData.
Proof. vm_compute. repeat split; reflexivity. Qed.

(* a name of 256 bytes is written with length byte 0 (byte(len) wraps): it does not round-trip, hence the
   hypothesis lenN (fqdn a) <= 255 of udp_header_roundtrip (AddrSpec.From refuses such names) *)
Example ex_long_name_wraps :
  match build_dgram (mkAddr (repeat 97 256) [] 80) [] with
  | Some pkt => exists a h p, parse pkt = POk a h p /\ fqdn a = []
  | None => False
  end.
Proof. exists (mkAddr [] [] (97 * 256 + 97)), [0;0;0;3;0;97;97], (repeat 97 254 ++ [0; 80]). split; reflexivity. Qed.

Example ex_relay :
  let s1 := mkUdp [10;0;0;1] 7 in
  let s2 := mkUdp [0;0;0;0;0;0;0;0;0;0;255;255;10;0;0;2] 9 in
  let hist := [Up [0;0;0; 3; 1;120; 0;7; 42] (Some [10;0;0;1]);       (* to "x":7, resolves to 10.0.0.1 *)
               Up [0;0;0; 1; 10;0;0;2; 0;9; 43; 44] None] in            (* to 10.0.0.2:9 *)
  fst (relay_run [] (hist ++ [Down s1 [1]; Down s2 []; Down (mkUdp [10;0;0;3] 5) [0;255]])) =
  [OSend s1 [42]; OSend (mkUdp [10;0;0;2] 9) [43;44];
   OClient [0;0;0;3;1;120;0;7; 1];                 (* reply from 10.0.0.1:7 carries the name the client used *)
   OClient [0;0;0;1;10;0;0;2;0;9];                 (* reply from ::ffff:10.0.0.2 carries 10.0.0.2:9, empty payload kept *)
   OClient [0;0;0;1;10;0;0;3;0;5; 0;255]].         (* unsolicited sender: its own address *)
Proof. vm_compute. reflexivity. Qed.

Example ex_wrapper_empty_payload :
  wrapper_write [] (mkUdp [127;0;0;1] 9999) = Some [0;0;0;1;127;0;0;1;39;15] /\
  wrapper_read 1500 [0;0;0;1;127;0;0;1;39;15] = WOk [] (mkUdp [127;0;0;1] 9999).
Proof. vm_compute. split; reflexivity. Qed.
