(* C07 — proofs about model/SrcCache.v: what a lookup in a cache reached by record operations can
   return.  The invariant ([inv], entry by entry [entry_ok]) ties every non-empty slot to the
   record operation that wrote it. *)
From Coq Require Import List NArith Bool Lia Permutation.
From M Require Import model.Discover model.SrcCache proofs.DiscoverProofs.
Import ListNotations.
Open Scope N_scope.

Lemma in_replace_nth {A} : forall i (x y : A) l, In y (replace_nth i x l) -> y = x \/ In y l.
Proof.
  induction i as [|i IH]; intros x y [|z r] H; cbn in H; try tauto.
  - destruct H as [H|H]; [left; congruence|right; right; exact H].
  - destruct H as [H|H]; [right; left; exact H|]. destruct (IH _ _ _ H); [left|right; right]; assumption.
Qed.

Lemma replace_nth_length {A} : forall i (x : A) l, length (replace_nth i x l) = length l.
Proof. induction i as [|i IH]; intros x [|z r]; cbn; auto. Qed.

Lemma first_index_spec {A} (p : A -> bool) d : forall l i,
  first_index p l = Some i -> In (nth i l d) l /\ p (nth i l d) = true.
Proof.
  induction l as [|x r IH]; intros i H; cbn in H; [discriminate|].
  destruct (p x) eqn:Hp.
  - inversion H; subst. split; [left; reflexivity|exact Hp].
  - destruct (first_index p r) as [j|]; [|discriminate]. inversion H; subst.
    destruct (IH _ eq_refl) as [Hin Hj]. split; [right; exact Hin|exact Hj].
Qed.

Lemma W32_nz : W32 <> 0.
Proof. discriminate. Qed.

Lemma age_lt : forall now t, age now t < W32.
Proof. intros. unfold age. apply N.mod_lt. exact W32_nz. Qed.

(* the wrap-around, precisely: for real (unbounded) tick counts T0 <= Tn the code's age is the
   elapsed time modulo 2^32 *)
Lemma age_real : forall T0 Tn, T0 <= Tn -> age (Tn mod W32) (T0 mod W32) = (Tn - T0) mod W32.
Proof.
  intros T0 Tn H. unfold age. rewrite !N.mod_mod by exact W32_nz.
  pose proof (N.mod_lt T0 W32 W32_nz) as Ha.
  (* Tn = T0 + d: modulo W32 the sum Tn + (W32 - T0 mod W32) is d + W32 *)
  replace Tn with (T0 + (Tn - T0)) at 1 by lia.
  rewrite <- (N.add_mod_idemp_l T0) by exact W32_nz.
  rewrite <- N.add_sub_assoc by lia.
  rewrite N.add_mod_idemp_l by exact W32_nz.
  replace (T0 mod W32 + (Tn - T0) + (W32 - T0 mod W32)) with (Tn - T0 + 1 * W32) by lia.
  apply N.mod_add. exact W32_nz.
Qed.

(* an association 2^32 + 5 ticks old is taken for 5 ticks old (136 years of process uptime) *)
Example age_alias : age ((7 + 2 ^ 32 + 5) mod W32) (7 mod W32) = 5.
Proof. vm_compute. reflexivity. Qed.

Lemma not_expired_lt : forall now t, expired now t = false -> age now t < life.
Proof. intros now t H. unfold expired in H. apply N.leb_gt. exact H. Qed.

Lemma upd_dup_fst : forall id a cs cs', upd_dup id a cs = Some cs' -> map fst cs' = map fst cs.
Proof.
  induction cs as [|[i b] r IH]; intros cs' H; cbn in H; [discriminate|].
  destruct (i =? id).
  - inversion H; subst. reflexivity.
  - destruct (upd_dup id a r) as [r'|]; [|discriminate]. inversion H; subst. cbn. f_equal. exact (IH _ eq_refl).
Qed.

Lemma collect_fst : forall now slots acc id,
  In id (map fst (collect now slots acc)) ->
  In id (map fst acc) \/ exists seen, In (id, seen) slots /\ id <> 0 /\ expired now seen = false.
Proof.
  induction slots as [|[i seen] r IH]; intros acc id H; cbn [collect] in H; [left; exact H|].
  assert (Lift : (exists s, In (id, s) r /\ id <> 0 /\ expired now s = false) ->
                 exists s, In (id, s) ((i, seen) :: r) /\ id <> 0 /\ expired now s = false).
  { intros [s [A B]]. exists s. split; [right; exact A|exact B]. }
  destruct ((i =? 0) || expired now seen) eqn:Hs.
  - destruct (IH _ _ H) as [A|A]; [left; exact A|right; exact (Lift A)].
  - apply orb_false_iff in Hs. destruct Hs as [Hz He]. apply N.eqb_neq in Hz.
    destruct (upd_dup i (age now seen) acc) as [acc'|] eqn:Hu.
    + destruct (IH _ _ H) as [A|A]; [|right; exact (Lift A)].
      rewrite (upd_dup_fst _ _ _ _ Hu) in A. left. exact A.
    + destruct (IH _ _ H) as [A|A]; [|right; exact (Lift A)].
      rewrite map_app, in_app_iff in A. destruct A as [A|[A|[]]]; [left; exact A|].
      cbn in A. subst i. right. exists seen. split; [left; reflexivity|auto].
Qed.

Lemma upd_dup_length : forall id a cs cs', upd_dup id a cs = Some cs' -> length cs' = length cs.
Proof.
  intros id a cs cs' H. pose proof (f_equal (@length N) (upd_dup_fst _ _ _ _ H)) as E.
  rewrite !map_length in E. exact E.
Qed.

Lemma collect_length : forall now slots acc, (length (collect now slots acc) <= length acc + length slots)%nat.
Proof.
  induction slots as [|[i seen] r IH]; intros acc; cbn [collect length]; [lia|].
  destruct ((i =? 0) || expired now seen); [specialize (IH acc); lia|].
  destruct (upd_dup i (age now seen) acc) as [acc'|] eqn:Hu.
  - specialize (IH acc'). rewrite (upd_dup_length _ _ _ _ Hu) in IH. lia.
  - specialize (IH (acc ++ [(i, age now seen)])). rewrite app_length in IH. cbn in IH. lia.
Qed.

Lemma insert_perm : forall x l, Permutation (insert x l) (x :: l).
Proof.
  induction l as [|z r IH]; cbn [insert]; [reflexivity|].
  destruct (snd x <? snd z); [reflexivity|]. rewrite IH. apply perm_swap.
Qed.

Lemma sort_perm : forall cs, Permutation (sort_by_age cs) cs.
Proof.
  assert (G : forall cs acc, Permutation (fold_left (fun a x => insert x a) cs acc) (cs ++ acc)).
  { induction cs as [|c r IH]; intros acc; cbn [fold_left app]; [reflexivity|].
    rewrite IH, insert_perm. symmetry. apply Permutation_middle. }
  intros cs. unfold sort_by_age. rewrite G. rewrite app_nil_r. reflexivity.
Qed.

Lemma lookup_entry_sound : forall now e id,
  In id (lookup_entry now e) ->
  id <> 0 /\ exists seen, In (id, seen) (e_slots e) /\ age now seen < life.
Proof.
  intros now e id H. unfold lookup_entry in H.
  destruct (expired now (e_last e)); [destruct H|].
  apply (Permutation_in _ (Permutation_map fst (sort_perm _))) in H.
  destruct (collect_fst _ _ _ _ H) as [[]|[seen [A [B C]]]].
  split; [exact B|]. exists seen. split; [exact A|exact (not_expired_lt _ _ C)].
Qed.

Lemma lookup_entry_length : forall now e, (length (lookup_entry now e) <= length (e_slots e))%nat.
Proof.
  intros. unfold lookup_entry. destruct (expired now (e_last e)); [cbn; lia|].
  rewrite map_length, (Permutation_length (sort_perm _)).
  exact (collect_length now (e_slots e) []).
Qed.

Lemma find_way_spec : forall key ws e, find_way key ws = Some e -> e_key e = key /\ In (Some e) ws.
Proof.
  induction ws as [|[e0|] r IH]; intros e H; cbn in H; [discriminate| |].
  - destruct (N.eqb_spec (e_key e0) key) as [Hk|Hk].
    + inversion H; subst. split; [reflexivity|left; reflexivity].
    + destruct (IH _ H) as [A B]. split; [exact A|right; exact B].
  - destruct (IH _ H) as [A B]. split; [exact A|right; exact B].
Qed.

(* the history H accounts for the entry e (the length serves cache_lookup_bounded, the slots
   cache_lookup_sound) *)
Definition entry_ok (H : list op) (e : entry) : Prop :=
  length (e_slots e) = nusers /\
  forall id tk, In (id, tk) (e_slots e) -> id <> 0 -> In (ORecord (e_key e) id tk) H.

Definition inv (H : list op) (t : table) : Prop :=
  forall b bk e, In (b, bk) t -> In (Some e) bk ->
    length (e_slots e) = nusers /\
    forall id tk, In (id, tk) (e_slots e) -> id <> 0 -> In (ORecord (e_key e) id tk) H.

Definition inv_opt (H : list op) (t : option table) : Prop :=
  match t with Some t => inv H t | None => True end.

Lemma entry_ok_mono : forall H H' e, entry_ok H e -> entry_ok (H ++ H') e.
Proof.
  intros H H' e [L S]. split; [exact L|]. intros id tk Hin Hz. apply in_or_app. left. exact (S id tk Hin Hz).
Qed.

Lemma inv_entry_ok : forall H t,
  inv H t <-> forall b bk e, In (b, bk) t -> In (Some e) bk -> entry_ok H e.
Proof. reflexivity. Qed.

Lemma inv_mono : forall H H' t, inv H t -> inv (H ++ H') t.
Proof.
  intros H H' t I. apply inv_entry_ok. intros b bk e Hb He.
  exact (entry_ok_mono H H' e (proj1 (inv_entry_ok H t) I b bk e Hb He)).
Qed.

Lemma get_bucket_ok : forall H t b e, inv H t -> In (Some e) (get_bucket t b) -> entry_ok H e.
Proof.
  intros H t b e I Hin. unfold get_bucket in Hin.
  destruct (find (fun p => fst p =? b) t) as [[b' bk]|] eqn:Hf.
  - apply find_some in Hf. destruct Hf as [Hb _]. exact (proj1 (inv_entry_ok H t) I b' bk e Hb Hin).
  - unfold empty_bucket in Hin. apply repeat_spec in Hin. discriminate.
Qed.

Lemma record_user_in : forall uid now slots s, In s (record_user uid now slots) -> s = (uid, now) \/ In s slots.
Proof.
  intros uid now slots s H. unfold record_user in H.
  destruct (choose_slot uid now slots); [exact (in_replace_nth _ _ _ _ H)|right; exact H].
Qed.

Lemma record_user_length : forall uid now slots, length (record_user uid now slots) = length slots.
Proof. intros. unfold record_user. destruct (choose_slot uid now slots); [apply replace_nth_length|reflexivity]. Qed.

Lemma record_bucket_ok : forall H t b key uid now e,
  inv H t ->
  In (Some e) (record_bucket key uid now (get_bucket t b)) ->
  entry_ok (H ++ [ORecord key uid now]) e.
Proof.
  intros H t b key uid now e I Hin.
  assert (New : In (ORecord key uid now) (H ++ [ORecord key uid now]))
    by (apply in_or_app; right; left; reflexivity).
  assert (Old : forall e', In (Some e') (get_bucket t b) -> entry_ok (H ++ [ORecord key uid now]) e')
    by (intros e' Hg; exact (entry_ok_mono _ _ _ (get_bucket_ok _ _ _ _ I Hg))).
  unfold record_bucket in Hin.
  destruct (first_index (way_matches key) (get_bucket t b)) as [i|] eqn:Hm.
  - (* the key has a way: its entry gets one slot rewritten *)
    destruct (nth i (get_bucket t b) None) as [e0|] eqn:Hn; [|exact (Old _ Hin)].
    apply in_replace_nth in Hin. destruct Hin as [Heq|Hin]; [|exact (Old _ Hin)].
    inversion Heq; subst e.
    destruct (first_index_spec (way_matches key) None _ _ Hm) as [He0 Hk]. rewrite Hn in He0, Hk.
    apply N.eqb_eq in Hk.
    destruct (Old _ He0) as [L S].
    split; cbn [e_slots e_key]; [rewrite record_user_length; exact L|].
    intros id tk Hs Hz. apply record_user_in in Hs. destruct Hs as [Hs|Hs]; [|exact (S id tk Hs Hz)].
    inversion Hs; subst. exact New.
  - (* a way is taken over by a fresh entry *)
    destruct (select_way now (get_bucket t b)) as [i|]; [|exact (Old _ Hin)].
    apply in_replace_nth in Hin. destruct Hin as [Heq|Hin]; [|exact (Old _ Hin)].
    inversion Heq; subst e. split; cbn [new_entry e_slots e_key].
    + cbn [length]. rewrite repeat_length. reflexivity.
    + intros id tk [Hs|Hs] Hz.
      * inversion Hs; subst. exact New.
      * apply repeat_spec in Hs. inversion Hs; subst. congruence.
Qed.

Lemma step_inv : forall bidx H t o, inv_opt H t -> inv_opt (H ++ [o]) (step bidx t o).
Proof.
  intros bidx H t o I. destruct o as [key uid now|]; cbn [step]; [|exact Logic.I].
  unfold record. destruct (uid =? 0).
  - destruct t as [t|]; [|exact Logic.I]. exact (inv_mono _ _ _ I).
  - destruct t as [t|]; [|exact Logic.I]. cbn [inv_opt] in *.
    intros b bk e Hb He. unfold set_bucket in Hb. destruct Hb as [Hb|Hb].
    + inversion Hb; subst. exact (record_bucket_ok _ _ _ _ _ _ _ I He).
    + apply filter_In in Hb. destruct Hb as [Hb _].
      exact (inv_mono H [ORecord key uid now] t I b bk e Hb He).
Qed.

Lemma run_inv_gen : forall bidx ops H t, inv_opt H t -> inv_opt (H ++ ops) (fold_left (step bidx) ops t).
Proof.
  induction ops as [|o r IH]; intros H t I; cbn [fold_left].
  - rewrite app_nil_r. exact I.
  - replace (H ++ o :: r) with ((H ++ [o]) ++ r) by (rewrite <- app_assoc; reflexivity).
    apply IH. apply step_inv. exact I.
Qed.

Lemma run_inv : forall bidx ops, inv_opt ops (run bidx ops).
Proof.
  intros. unfold run. apply (run_inv_gen bidx ops [] (Some [])). intros b bk e [].
Qed.

Lemma lookup_run : forall bidx ops key now,
  lookup bidx (run bidx ops) key now = [] \/
  exists e, lookup bidx (run bidx ops) key now = lookup_entry now e /\ e_key e = key /\ entry_ok ops e.
Proof.
  intros bidx ops key now. pose proof (run_inv bidx ops) as I.
  unfold lookup. destruct (run bidx ops) as [t|]; [|left; reflexivity]. cbn [inv_opt] in I.
  destruct (find_way key (get_bucket t (bidx key))) as [e|] eqn:Hf; [|left; reflexivity].
  destruct (find_way_spec _ _ _ Hf) as [Hk Hin].
  right. exists e. split; [reflexivity|]. split; [exact Hk|exact (get_bucket_ok _ _ _ _ I Hin)].
Qed.

Theorem cache_lookup_sound : forall bidx ops key now id,
  In id (lookup bidx (run bidx ops) key now) ->
  id <> 0 /\ exists t, In (ORecord key id t) ops /\ age now t < life.
Proof.
  intros bidx ops key now id H.
  destruct (lookup_run bidx ops key now) as [E|[e [E [Hk [_ S]]]]]; rewrite E in H; [destruct H|].
  destruct (lookup_entry_sound _ _ _ H) as [Hz [seen [Hs Ha]]].
  split; [exact Hz|]. exists seen. split; [|exact Ha]. rewrite <- Hk. exact (S id seen Hs Hz).
Qed.

Corollary cache_lookup_sound_real : forall bidx ops key Tn id,
  In id (lookup bidx (run bidx ops) key (Tn mod W32)) ->
  exists t, In (ORecord key id t) ops /\
    forall T0, t = T0 mod W32 -> T0 <= Tn -> Tn - T0 < W32 -> Tn - T0 < life.
Proof.
  intros bidx ops key Tn id H. destruct (cache_lookup_sound _ _ _ _ _ H) as [_ [t [A B]]].
  exists t. split; [exact A|]. intros T0 -> H1 H2. rewrite age_real in B by exact H1.
  rewrite N.mod_small in B by exact H2. exact B.
Qed.

Theorem cache_lookup_bounded : forall bidx ops key now,
  N.of_nat (length (lookup bidx (run bidx ops) key now)) <= att_cap.
Proof.
  intros bidx ops key now.
  (* the cache's slots per entry and tryState's attempted array: one Go constant, sourceUserCacheUsers *)
  assert (Hc : N.of_nat nusers = att_cap) by reflexivity.
  destruct (lookup_run bidx ops key now) as [E|[e [E [_ [L _]]]]]; rewrite E; [cbn; lia|].
  pose proof (lookup_entry_length now e). lia.
Qed.

Lemma retired_stays : forall bidx ops, fold_left (step bidx) ops None = None.
Proof.
  intros bidx. induction ops as [|o r IH]; [reflexivity|]. cbn [fold_left].
  destruct o as [k u n|]; cbn [step]; [|exact IH]. unfold record. destruct (u =? 0); exact IH.
Qed.

Theorem cache_retired_inert : forall bidx ops ops' key now,
  lookup bidx (fold_left (step bidx) ops' (run bidx (ops ++ [ORetire]))) key now = [].
Proof.
  intros. unfold run. rewrite fold_left_app. cbn [fold_left step]. rewrite retired_stays. reflexivity.
Qed.

Theorem attr_once_reachable : forall U (hint auth : U -> bool) users mandatory bidx ops key now,
  NoDup (r_tried (try_state U hint auth users (lookup bidx (run bidx ops) key now) mandatory)).
Proof. intros. apply attr_once. apply cache_lookup_bounded. Qed.

Definition ex_bidx (k : N) : N := k mod 2.
Definition ex_ops : list op :=
  [ORecord 100 3 10; ORecord 100 5 20; ORecord 102 7 25; ORecord 100 3 30; ORecord 101 9 31].

Example ex_lookup_mru : lookup ex_bidx (run ex_bidx ex_ops) 100 40 = [3; 5].
Proof. vm_compute. reflexivity. Qed.

Example ex_lookup_other_key_same_bucket : lookup ex_bidx (run ex_bidx ex_ops) 102 40 = [7].
Proof. vm_compute. reflexivity. Qed.

Example ex_lookup_user_expiry : lookup ex_bidx (run ex_bidx ex_ops) 100 (20 + 600) = [3].
Proof. vm_compute. reflexivity. Qed.

Example ex_lookup_source_expiry : lookup ex_bidx (run ex_bidx ex_ops) 100 (30 + 600) = [].
Proof. vm_compute. reflexivity. Qed.

(* the tick wraps between the record and the lookup *)
Example ex_lookup_wrap :
  lookup ex_bidx (run ex_bidx [ORecord 100 3 (2 ^ 32 - 5)]) 100 594 = [3] /\
  lookup ex_bidx (run ex_bidx [ORecord 100 3 (2 ^ 32 - 5)]) 100 595 = [].
Proof. vm_compute. split; reflexivity. Qed.

(* five sources in one bucket: the least recently active way is replaced *)
Example ex_way_replacement :
  let ops := [ORecord 0 1 10; ORecord 2 2 11; ORecord 4 3 12; ORecord 6 4 13; ORecord 0 1 14; ORecord 8 5 15] in
  lookup ex_bidx (run ex_bidx ops) 2 16 = [] /\ lookup ex_bidx (run ex_bidx ops) 0 16 = [1] /\
  lookup ex_bidx (run ex_bidx ops) 8 16 = [5].
Proof. vm_compute. repeat split; reflexivity. Qed.

(* seventeen users from one source: the oldest of the sixteen is replaced *)
Example ex_user_eviction :
  let ops := map (fun i => ORecord 100 (N.of_nat i) (N.of_nat i)) (seq 1 17) in
  lookup ex_bidx (run ex_bidx ops) 100 18 = map N.of_nat (rev (seq 2 16)).
Proof. vm_compute. reflexivity. Qed.
