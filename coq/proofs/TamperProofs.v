(* C04 - what tampered bytes make the receivers of model/TcpStream.v (TCP) and model/Tamper.v (UDP) hand on.  TCP rests on
   one alignment invariant (drain_aligned), the datagram part on inversions of udp_parse, the packet session on comparing
   recvBuf as a map; the table AEAD and the concrete streams and datagrams stand at the end. *)
From Coq Require Import List NArith Bool Arith Lia.
From Coq Require Import ZifyN ZifyNat ZifyBool.
From M Require Import model.TcpStream proofs.TcpStreamProofs model.Tamper.
Import ListNotations.
Open Scope N_scope.

Lemma nonce_add_add : forall a b n, nonce_add (a + b) n = nonce_add b (nonce_add a n).
Proof. induction a as [|a IH]; intros b n; [reflexivity|]. exact (IH b (nonce_inc n)). Qed.

Lemma nonce_add_length : forall k n, length (nonce_add k n) = length n.
Proof. induction k as [|k IH]; intros n; cbn [nonce_add]; [reflexivity|]. rewrite IH. apply nonce_inc_len. Qed.

Lemma list_eqb_true : forall a b, list_eqb a b = true -> a = b.
Proof.
  induction a as [|x a IH]; intros [|y b] H; cbn [list_eqb] in H; try discriminate; [reflexivity|].
  apply andb_prop in H. destruct H as [H1 H2]. apply N.eqb_eq in H1. subst y. f_equal. apply IH, H2.
Qed.

Lemma list_eqb_refl : forall a, list_eqb a a = true.
Proof. induction a as [|x a IH]; cbn [list_eqb]; [reflexivity|]. rewrite N.eqb_refl, IH. reflexivity. Qed.

Lemma stream_boxes_app : forall mm ll a b, stream_boxes mm ll (a ++ b) = stream_boxes mm ll a ++ stream_boxes mm ll b.
Proof. intros. unfold stream_boxes. rewrite map_app, concat_app. reflexivity. Qed.

Lemma in_seg_boxes : forall mm ll s p, In p (seg_boxes mm ll s) ->
  p = mm (fill_meta ll s) \/ is_nil (s_payload s) = false /\ p = s_payload s.
Proof.
  intros mm ll s p [H|H]; [left; symmetry; exact H|right].
  destruct (is_nil (s_payload s)); [destruct H|]. destruct H as [H|[]]. split; [reflexivity|symmetry; exact H].
Qed.

Lemma firstn_snoc_nth {A} : forall (l : list A) n x, nth_error l n = Some x -> firstn (S n) l = firstn n l ++ [x].
Proof.
  induction l as [|y l IH]; intros [|n] x H; cbn in H; try discriminate.
  - inversion H. reflexivity.
  - cbn [firstn app]. f_equal. apply IH, H.
Qed.

Section Parser.
  Variable open : list N -> list N -> option (list N).
  Variable parse_meta : list N -> option minfo.
  Variable le_decode : leparams -> N -> list N -> option (list N).
  Notation parse1 := (parse1 open parse_meta le_decode).
  Notation drain := (drain open parse_meta le_decode).

  Lemma parse1_start : forall buf,
    parse1 None buf = match take nonceLen buf with Some (n, b1) => parse1 (Some n) b1 | None => NeedMore end.
  Proof. intros buf. unfold TcpStream.parse1. destruct (take nonceLen buf) as [[n b1]|]; reflexivity. Qed.

  Lemma parse1_got_some : forall nx buf r n' rest, parse1 nx buf = Got r n' rest ->
    exists n b, parse1 (Some n) b = Got r n' rest.
  Proof.
    intros [n|] buf r n' rest H; [exists n, buf; exact H|]. rewrite parse1_start in H.
    destruct (take nonceLen buf) as [[n b1]|]; [exists n, b1; exact H|discriminate H].
  Qed.

  Lemma drain_header : forall f n rest, length n = nonceLen ->
    fst (drain (S f) None (n ++ rest)) = fst (drain (S f) (Some n) rest).
  Proof.
    intros f n rest Hn. cbn [TcpStream.drain]. rewrite parse1_start, <- Hn, take_app_exact.
    destruct (parse1 (Some n) rest); reflexivity.
  Qed.
End Parser.

Section TcpAuthentic.
  Variable open : list N -> list N -> option (list N).
  Variable parse_meta : list N -> option minfo.
  Variable le_decode : leparams -> N -> list N -> option (list N).
  (* the (nonce, plaintext) pairs sealed by holders of the key: this direction, the other direction,
     other connections of the same user *)
  Variable sealed : list N -> list N -> Prop.
  Hypothesis open_sealed : forall n c p, open n c = Some p -> sealed n p.

  Notation parse1 := (parse1 open parse_meta le_decode).
  Notation drain := (drain open parse_meta le_decode).
  Notation feed := (feed open parse_meta le_decode).

  Definition authentic (r : rseg) : Prop :=
    exists n mp, sealed n mp /\ parse_meta mp = Some (fst r) /\ (snd r = [] \/ sealed (nonce_inc n) (snd r)).

  Lemma parse1_authentic : forall nx buf s n' rest, parse1 nx buf = Got s n' rest -> authentic s.
  Proof using open_sealed.
    intros nx buf [mi pl] n' rest H.
    apply parse1_got_some in H as (n & b & H). apply parse1_got_inv in H as (mbox & mp & Ho & Hp & Hc).
    exists n, mp. split; [exact (open_sealed _ _ _ Ho)|]. split; [exact Hp|].
    destruct Hc as [(_ & -> & _)|(_ & [box Hb] & _)]; [left; reflexivity|right; exact (open_sealed _ _ _ Hb)].
  Qed.

  Lemma drain_authentic : forall fuel nx buf, Forall authentic (fst (drain fuel nx buf)).
  Proof using open_sealed.
    induction fuel as [|f IH]; intros nx buf; cbn [TcpStream.drain]; [constructor|].
    destruct (parse1 nx buf) as [| |s n' rest] eqn:E; cbn [fst]; try constructor.
    specialize (IH (Some n') rest). destruct (drain f (Some n') rest) as [l st]. cbn [fst] in *.
    constructor; [exact (parse1_authentic _ _ _ _ _ E)|exact IH].
  Qed.

  Theorem tcp_authentic : forall st chunk, Forall authentic (fst (feed st chunk)).
  Proof using open_sealed.
    intros st chunk. unfold TcpStream.feed. destruct (r_failed st); [constructor|]. apply drain_authentic.
  Qed.
End TcpAuthentic.

Lemma tcp_short_nothing : forall op pm ld s', (length s' < nonceLen)%nat -> fst (feed op pm ld r_init s') = [].
Proof.
  intros op pm ld s' Hl. unfold feed. cbn [r_failed r_init r_buf r_next app]. cbn [drain].
  rewrite parse1_start. destruct (take nonceLen s') as [[a b]|] eqn:E; [|reflexivity].
  apply take_some_split in E as [-> E]. rewrite app_length in Hl. lia.
Qed.

Theorem tcp_no_resync : forall op pm ld a b,
  r_failed (snd (feed op pm ld r_init a)) = true -> feed op pm ld r_init (a ++ b) = feed op pm ld r_init a.
Proof.
  intros op pm ld a b H. rewrite feed_app. destruct (feed op pm ld r_init a) as [l1 st1]. cbn [snd] in H.
  rewrite (feed_failed _ _ _ _ b H). rewrite app_nil_r. reflexivity.
Qed.

Lemma session_in_other : forall client sid l, Forall (fun r : rseg => mi_sid (fst r) <> sid) l -> session_in client sid l = [].
Proof.
  intros client sid l H. induction H as [|r t Hr _ IH]; cbn [session_in]; [reflexivity|].
  destruct (mi_sid (fst r) =? sid) eqn:E; [apply N.eqb_eq in E; contradiction|exact IH].
Qed.

Section TcpPrefix.
  Variable open : list N -> list N -> option (list N).
  Variable parse_meta : list N -> option minfo.
  Variable le_decode : leparams -> N -> list N -> option (list N).
  Variable marshal_meta : minfo -> list N.
  Variable le_len : leparams -> N -> N.
  Variable segs : list segment.     (* what the sender of this direction sent *)
  Variable n0 : list N.             (* its first nonce *)

  Notation fill_meta := (fill_meta le_len).
  Notation deliver := (deliver le_len).
  Notation parse1 := (parse1 open parse_meta le_decode).
  Notation drain := (drain open parse_meta le_decode).
  Notation feed := (feed open parse_meta le_decode).
  Notation sboxes := (stream_boxes marshal_meta le_len).

  (* INT-CTXT for this direction: only the sender's boxes open, each under its own counter value; tcp_authentic's
     premise lets every key holder's boxes open *)
  Hypothesis open_sound : forall n c p, open n c = Some p ->
    exists k, n = nonce_add k n0 /\ nth_error (sboxes segs) k = Some p.
  (* the counter does not wrap within the stream; i may be one past the last box: the nonce the receiver holds after
     the last box must not open an earlier one.  C09_nonce_never_repeats proves it of model/Wire.v's increment. *)
  Hypothesis nonce_distinct : forall i k, (i <= length (sboxes segs))%nat -> (k < length (sboxes segs))%nat ->
    nonce_add i n0 = nonce_add k n0 -> i = k.
  Hypothesis sent_ok : forall s, In s segs ->
    parse_meta (marshal_meta (fill_meta s)) = Some (fill_meta s) /\
    (mi_plen (fill_meta s) =? 0) = is_nil (s_payload s).

  (* the sender's boxes split anywhere into [a] and [b]: what opens under the k-th nonce after [a] is the k-th box of [b] *)
  Lemma open_at : forall a b k c p, sboxes segs = a ++ b -> (k <= length b)%nat ->
    open (nonce_add k (nonce_add (length a) n0)) c = Some p -> nth_error b k = Some p.
  Proof using open_sound nonce_distinct.
    intros a b k c p HP Hk Ho. rewrite <- nonce_add_add in Ho.
    destruct (open_sound _ _ _ Ho) as [j [Hn Hj]].
    assert (Hlt : (j < length (sboxes segs))%nat) by (apply nth_error_Some; rewrite Hj; discriminate).
    rewrite <- (nonce_distinct (length a + k) j) in Hj; [|rewrite HP, app_length; lia|exact Hlt|exact Hn].
    rewrite HP, nth_error_app2, Nat.add_comm, Nat.add_sub in Hj by lia. exact Hj.
  Qed.

  Lemma seg_boxes_len : forall s, (1 <= length (seg_boxes marshal_meta le_len s))%nat.
  Proof. intros s. unfold seg_boxes. cbn [length]. lia. Qed.

  (* the invariant: the receiver stands behind the boxes [a], the segments [l] are still to come *)
  Lemma parse1_aligned : forall a l buf r n' rest, sboxes segs = a ++ sboxes l -> incl l segs ->
    parse1 (Some (nonce_add (length a) n0)) buf = Got r n' rest ->
    exists s0 l', l = s0 :: l' /\ r = deliver s0 /\
      n' = nonce_add (length (seg_boxes marshal_meta le_len s0)) (nonce_add (length a) n0).
  Proof using open_sound nonce_distinct sent_ok.
    intros a l buf [mi pl] n' rest HP Hl H.
    apply parse1_got_inv in H as (mbox & mp & Ho & Hp & Hc).
    (* the metadata box is the first box after [a]: the metadata of the first remaining segment *)
    pose proof (open_at a _ 0 _ _ HP (Nat.le_0_l _) Ho) as H0.
    destruct l as [|s0 l']; [discriminate H0|].
    change (sboxes (s0 :: l')) with (seg_boxes marshal_meta le_len s0 ++ sboxes l') in *.
    destruct (sent_ok s0 (Hl s0 (in_eq _ _))) as [Hpm Hz].
    unfold seg_boxes in *. injection H0 as <-.
    rewrite Hpm in Hp. injection Hp as <-.
    exists s0, l'. split; [reflexivity|]. unfold TcpStream.deliver.
    destruct Hc as [(Ez & -> & ->)|(Ez & [box Hb] & ->)]; rewrite Ez in Hz; symmetry in Hz.
    - apply is_nil_true in Hz. rewrite Hz. split; reflexivity.
    - (* the body is the box after it: the payload *)
      rewrite Hz in *.   (* seg_boxes s0 becomes [metadata; payload] *)
      apply (open_at a _ 1 _ _ HP) in Hb; [|cbn [app length]; lia].
      injection Hb as <-. split; reflexivity.
  Qed.

  Lemma drain_aligned : forall fuel a l buf, sboxes segs = a ++ sboxes l -> incl l segs ->
    exists m, fst (drain fuel (Some (nonce_add (length a) n0)) buf) = map deliver (firstn m l).
  Proof using open_sound nonce_distinct sent_ok.
    induction fuel as [|f IH]; intros a l buf HP Hl; cbn [TcpStream.drain]; [exists 0%nat; reflexivity|].
    destruct (parse1 (Some (nonce_add (length a) n0)) buf) as [| |r n' rest] eqn:E;
      try (exists 0%nat; reflexivity).
    destruct (parse1_aligned _ _ _ _ _ _ HP Hl E) as (s0 & l' & -> & -> & ->).
    change (sboxes (s0 :: l')) with (seg_boxes marshal_meta le_len s0 ++ sboxes l') in HP.
    rewrite <- nonce_add_add, <- app_length. rewrite app_assoc in HP.
    destruct (IH _ l' rest HP (fun s Hs => Hl s (in_cons _ _ _ Hs))) as [m Hm].
    destruct (drain f _ rest) as [l2 st2]. cbn [fst] in *. exists (S m). cbn [firstn map]. rewrite Hm. reflexivity.
  Qed.

  Theorem tcp_infix_from_boundary : length n0 = nonceLen -> forall pre l rest, segs = pre ++ l ->
    exists m, fst (feed r_init (nonce_add (length (sboxes pre)) n0 ++ rest)) = map deliver (firstn m l).
  Proof using open_sound nonce_distinct sent_ok.
    intros Hn pre l rest Hsegs. unfold TcpStream.feed. cbn [r_failed r_init r_buf r_next app].
    rewrite drain_header by (rewrite nonce_add_length; exact Hn).
    apply drain_aligned; [rewrite Hsegs; apply stream_boxes_app|rewrite Hsegs; apply incl_appr, incl_refl].
  Qed.

  Theorem tcp_cross_connection_splice_refused : length n0 = nonceLen -> forall client sidB,
    Forall (fun s => mi_sid (s_meta s) <> sidB) segs ->
    forall pre l rest, segs = pre ++ l ->
      session_in client sidB (fst (feed r_init (nonce_add (length (sboxes pre)) n0 ++ rest))) = [].
  Proof using open_sound nonce_distinct sent_ok.
    intros Hn client sidB Hd pre l rest Hsegs.
    destruct (tcp_infix_from_boundary Hn pre l rest Hsegs) as [m Hm]. rewrite Hm.
    apply session_in_other. rewrite Forall_forall. intros r Hr.
    apply in_map_iff in Hr. destruct Hr as [s [Hs Hin]]. subst r.
    rewrite Forall_forall in Hd. apply (Hd s). rewrite Hsegs. apply in_or_app. right.
    rewrite <- (firstn_skipn m l). apply in_or_app. left. exact Hin.
  Qed.

End TcpPrefix.

(* C01 states the premises over [sealed]: INT-CTXT as membership, freshness as NoDup of its nonces and the one after
   them.  [sealed] is stream_boxes numbered by the counter, so these are open_sound and nonce_distinct. *)
Lemma sealed_boxes : forall mm ll segs n, map snd (sealed mm ll n segs) = stream_boxes mm ll segs.
Proof.
  intros mm ll. induction segs as [|s t IH]; intros n; [reflexivity|].
  change (stream_boxes mm ll (s :: t)) with (seg_boxes mm ll s ++ stream_boxes mm ll t).
  cbn [sealed]. unfold seg_boxes. destruct (is_nil (s_payload s)); cbn [map snd app]; rewrite IH; reflexivity.
Qed.

Lemma sealed_nonces_nth : forall mm ll segs n k, (k <= length (stream_boxes mm ll segs))%nat ->
  nth_error (map fst (sealed mm ll n segs) ++ [nonce_after n segs]) k = Some (nonce_add k n).
Proof.
  intros mm ll. induction segs as [|s t IH]; intros n k Hk.
  - destruct k; [reflexivity|inversion Hk].
  - change (stream_boxes mm ll (s :: t)) with (seg_boxes mm ll s ++ stream_boxes mm ll t) in Hk.
    unfold seg_boxes in Hk. cbn [sealed nonce_after].
    destruct (is_nil (s_payload s)); cbn [length map fst app] in *.
    + destruct k as [|k]; [reflexivity|]. exact (IH (nonce_inc n) k (le_S_n _ _ Hk)).
    + destruct k as [|[|k]]; [reflexivity|reflexivity|].
      exact (IH (nonce_inc (nonce_inc n)) k (le_S_n _ _ (le_S_n _ _ Hk))).
Qed.

Section TcpSealed.
  Variable open : list N -> list N -> option (list N).
  Variable marshal_meta : minfo -> list N.
  Variable parse_meta : list N -> option minfo.
  Variable le_len : leparams -> N -> N.
  Variable le_decode : leparams -> N -> list N -> option (list N).
  Variable meta_ok : minfo -> bool.
  Variable le_ok : leparams -> N -> bool.
  Hypothesis parse_marshal : forall m, meta_ok m = true -> parse_meta (marshal_meta m) = Some m.

  Notation feed := (feed open parse_meta le_decode).
  Notation deliver := (deliver le_len).
  Notation seg_ok := (seg_ok le_len meta_ok le_ok).
  Notation sealed := (sealed marshal_meta le_len).

  Theorem tamper_prefix : forall (n0 : list N) (segs : list segment),
    (forall n c p, open n c = Some p -> In (n, p) (sealed n0 segs)) ->
    NoDup (map fst (sealed n0 segs) ++ [nonce_after n0 segs]) ->
    Forall seg_ok segs ->
    forall x x1, take nonceLen x = Some (n0, x1) ->
      (exists k, fst (feed r_init x) = firstn k (map deliver segs)) /\
      (forall y, r_failed (snd (feed r_init x)) = true -> fst (feed (snd (feed r_init x)) y) = []).
  Proof using parse_marshal.
    intros n0 segs IC ND Hok x x1 Hx. apply take_some_split in Hx as [-> Hn].
    split; [|intros y Hf; rewrite (feed_failed open parse_meta le_decode _ y Hf); reflexivity].
    assert (HL : length (sealed n0 segs) = length (stream_boxes marshal_meta le_len segs))
      by (rewrite <- (sealed_boxes _ _ segs n0); symmetry; apply map_length).
    enough (exists j, fst (feed r_init (n0 ++ x1)) = map deliver (firstn j segs)) as [j Hj]
      by (exists j; rewrite firstn_map; exact Hj).
    apply (tcp_infix_from_boundary open parse_meta le_decode marshal_meta le_len segs n0) with (pre := []);
      [| | |exact Hn|reflexivity].
    - (* open_sound *)
      intros n c p Ho. apply IC, In_nth_error in Ho as [k Hk]. exists k.
      assert (Hlt : (k < length (sealed n0 segs))%nat) by (apply nth_error_Some; congruence).
      pose proof (sealed_nonces_nth marshal_meta le_len segs n0 k) as Hk1.
      rewrite nth_error_app1, (map_nth_error fst _ _ Hk) in Hk1 by (rewrite map_length; exact Hlt).
      rewrite <- HL in Hk1. injection (Hk1 (Nat.lt_le_incl _ _ Hlt)) as <-. split; [reflexivity|].
      rewrite <- (sealed_boxes _ _ segs n0). exact (map_nth_error snd _ _ Hk).
    - (* nonce_distinct *)
      intros i k Hi Hk E. apply (proj1 (NoDup_nth_error _) ND).
      + rewrite app_length, map_length, HL, Nat.add_1_r. apply Nat.lt_succ_r, Hi.
      + rewrite (sealed_nonces_nth _ _ _ _ _ Hi), (sealed_nonces_nth _ _ _ _ _ (Nat.lt_le_incl _ _ Hk)), E. reflexivity.
    - (* sent_ok *)
      intros s Hs. rewrite Forall_forall in Hok. destruct (Hok s Hs) as (Hm & Hb & _).
      split; [exact (parse_marshal _ Hm)|exact Hb].
  Qed.
End TcpSealed.

Definition same_but_pad (s t : segment) : Prop :=
  s_meta s = s_meta t /\ s_payload s = s_payload t /\ s_pb s = s_pb t /\
  length (s_pad1 s) = length (s_pad1 t) /\ length (s_pad2 s) = length (s_pad2 t).

Lemma same_but_pad_deliver : forall ll l l', Forall2 same_but_pad l l' -> map (deliver ll) l = map (deliver ll) l'.
Proof.
  intros ll l l' H. induction H as [|s t l l' [Hm [Hp [_ [H1 H2]]]] _ IH]; [reflexivity|]. cbn [map]. rewrite IH. f_equal.
  unfold deliver, fill_meta, eff_pad1, lenN. rewrite Hm, Hp, H2.
  destruct (is_session (mi_proto (s_meta t))); [reflexivity|]. rewrite H1. reflexivity.
Qed.

Section LowEntropy.
  Variable le_encode : leparams -> bool -> list N -> list N.
  Variable le_decode : leparams -> N -> list N -> option (list N).
  (* canonicity of the codec (props/C17.v: C17_canonical / C17_accepts_iff_canonical) *)
  Hypothesis canonical : forall lp e enc ct, le_decode lp e enc = Some ct -> exists pb, enc = le_encode lp pb ct.

  Theorem le_decode_before_open : forall mi body,
    is_le (mi_proto mi) = true ->
    match le_unwrap le_decode mi body with
    | None => le_decode (mi_le mi) (mi_elen mi) (firstn (N.to_nat (mi_plen mi)) body) = None
    | Some box =>
        exists ct pb,
          box = ct ++ skipn (N.to_nat (mi_plen mi)) body /\
          firstn (N.to_nat (mi_plen mi)) body = le_encode (mi_le mi) pb ct
    end.
  Proof using canonical.
    intros mi body Hle. unfold le_unwrap. rewrite Hle.
    destruct (le_decode (mi_le mi) (mi_elen mi) (firstn (N.to_nat (mi_plen mi)) body)) as [ct|] eqn:E; [|reflexivity].
    destruct (canonical _ _ _ _ E) as [pb Hpb]. exists ct, pb. split; [reflexivity|exact Hpb].
  Qed.

End LowEntropy.

Lemma udp_body_some : forall open le_decode mi n rem pl, udp_body open le_decode mi n rem = Some pl ->
  (hdrLen + length rem = udp_total mi)%nat /\
  if mi_plen mi =? 0 then pl = [] else exists c, open n c = Some pl.
Proof.
  intros open le_decode mi n rem pl H. unfold Tamper.udp_body in H. unfold udp_total.
  destruct (is_session (mi_proto mi)).
  - destruct (mi_plen mi =? 0).
    + destruct (Nat.eqb_spec (N.to_nat (mi_suf mi)) (length rem)) as [E|_]; [|discriminate H].
      injection H as <-. split; [lia|reflexivity].
    + destruct (length rem <? N.to_nat (mi_plen mi) + tagLen)%nat; [discriminate H|].
      destruct (open n (firstn (N.to_nat (mi_plen mi) + tagLen) rem)) as [pl'|] eqn:Eo; [|discriminate H].
      destruct (Nat.eqb_spec (N.to_nat (mi_plen mi) + tagLen + N.to_nat (mi_suf mi)) (length rem)) as [E|_]; [|discriminate H].
      injection H as <-. split; [lia|exists (firstn (N.to_nat (mi_plen mi) + tagLen) rem); exact Eo].
  - destruct (length rem <? N.to_nat (mi_pre mi))%nat eqn:E0; [discriminate H|]. apply Nat.ltb_ge in E0.
    pose proof (skipn_length (N.to_nat (mi_pre mi)) rem) as Hs.
    set (rem1 := skipn (N.to_nat (mi_pre mi)) rem) in H, Hs.
    destruct (mi_plen mi =? 0).
    + destruct (Nat.eqb_spec (N.to_nat (mi_suf mi)) (length rem1)) as [E|_]; [|discriminate H].
      injection H as <-. split; [lia|reflexivity].
    + destruct (length rem1 <? N.to_nat (mi_plen mi) + tagLen)%nat; [discriminate H|].
      destruct (Nat.eqb_spec (length rem1) (N.to_nat (mi_plen mi) + tagLen + N.to_nat (mi_suf mi))) as [E|_]; [|discriminate H].
      cbn [negb] in H.
      destruct (le_unwrap le_decode mi (firstn (N.to_nat (mi_plen mi) + tagLen) rem1)) as [box|]; [|discriminate H].
      split; [lia|exists box; exact H].
Qed.

Section UdpSize.
  Variable open : list N -> list N -> option (list N).
  Variable parse_meta : list N -> option minfo.
  Variable le_decode : leparams -> N -> list N -> option (list N).
  Notation udp_parse := (udp_parse open parse_meta le_decode).
  Notation udp_body := (udp_body open le_decode).

  Lemma udp_parse_some : forall d mi pl, udp_parse d = Some (mi, pl) ->
    (hdrLen <= length d)%nat /\
    exists c mp, open (firstn nonceLen d) c = Some mp /\ parse_meta mp = Some mi /\
      udp_body mi (firstn nonceLen d) (skipn hdrLen d) = Some pl.
  Proof.
    intros d mi pl H. unfold Tamper.udp_parse in H.
    destruct (length d <? hdrLen)%nat eqn:E0; [discriminate H|]. apply Nat.ltb_ge in E0.
    destruct (open (firstn nonceLen d) (firstn (metaLen + tagLen) (skipn nonceLen d))) as [mp|] eqn:Eo; [|discriminate H].
    destruct (parse_meta mp) as [mi'|] eqn:Ep; [|discriminate H].
    destruct (udp_body mi' (firstn nonceLen d) (skipn hdrLen d)) as [pl'|] eqn:Eb; [|discriminate H].
    injection H as <- <-. split; [exact E0|]. exists (firstn (metaLen + tagLen) (skipn nonceLen d)), mp.
    split; [exact Eo|]. split; [exact Ep|exact Eb].
  Qed.

  Theorem udp_size_exact : forall d mi pl, udp_parse d = Some (mi, pl) -> length d = udp_total mi.
  Proof.
    intros d mi pl H. destruct (udp_parse_some _ _ _ H) as (Hd & c & mp & _ & _ & Hb).
    apply udp_body_some in Hb as [Hb _]. rewrite skipn_length in Hb. lia.
  Qed.
End UdpSize.

Section UdpSealed.
  Variable open : list N -> list N -> option (list N).
  Variable parse_meta : list N -> option minfo.
  Variable marshal_meta : minfo -> list N.
  Variable le_len : leparams -> N -> N.
  (* every datagram sealed by a holder of a registered key: (nonce, segment) *)
  Variable sent : list (list N * segment).
  Notation fill_meta := (fill_meta le_len).

  (* INT-CTXT: a box opens only if a registered peer sealed exactly this plaintext under exactly this nonce *)
  Hypothesis open_sound_udp : forall n c p, open n c = Some p ->
    exists s, In (n, s) sent /\ In p (seg_boxes marshal_meta le_len s).
  (* a nonce is drawn afresh for every datagram *)
  Hypothesis nonce_once : forall n s1 s2, In (n, s1) sent -> In (n, s2) sent -> s1 = s2.
  Hypothesis sent_ok : forall n s, In (n, s) sent ->
    parse_meta (marshal_meta (fill_meta s)) = Some (fill_meta s) /\
    (mi_plen (fill_meta s) =? 0) = is_nil (s_payload s).
  (* a condition on the data sent, not on the AEAD: it excludes the payload box replayed in the metadata position *)
  Hypothesis payload_not_meta : forall n s, In (n, s) sent -> is_nil (s_payload s) = false ->
    parse_meta (s_payload s) = None.

  Lemma udp_meta_of_sent : forall n c mp mi, open n c = Some mp -> parse_meta mp = Some mi ->
    exists s, In (n, s) sent /\ mi = fill_meta s.
  Proof using open_sound_udp sent_ok payload_not_meta.
    intros n c mp mi Ho Hp. destruct (open_sound_udp _ _ _ Ho) as [s [Hin Hbox]]. exists s. split; [exact Hin|].
    destruct (in_seg_boxes _ _ _ _ Hbox) as [->|[En ->]].
    - rewrite (proj1 (sent_ok _ _ Hin)) in Hp. injection Hp as <-. reflexivity.
    - rewrite (payload_not_meta _ _ Hin En) in Hp. discriminate Hp.
  Qed.

  (* the sender sealed two boxes under n and nothing tells them apart: either may come back as the payload *)
  Lemma udp_payload_of_sent : forall n s pl, In (n, s) sent ->
    (if mi_plen (fill_meta s) =? 0 then pl = [] else exists c, open n c = Some pl) ->
    pl = s_payload s \/ pl = marshal_meta (fill_meta s).
  Proof using open_sound_udp nonce_once sent_ok.
    intros n s pl Hin Hpl. rewrite (proj2 (sent_ok _ _ Hin)) in Hpl. destruct (is_nil (s_payload s)) eqn:En.
    - left. rewrite Hpl. symmetry. apply is_nil_true, En.
    - destruct Hpl as [c Hc]. destruct (open_sound_udp _ _ _ Hc) as [s' [Hin' Hbox]].
      rewrite (nonce_once _ _ _ Hin' Hin) in Hbox.
      destruct (in_seg_boxes _ _ _ _ Hbox) as [->|[_ ->]]; [right|left]; reflexivity.
  Qed.
End UdpSealed.

Lemma own_not_accepted : forall client p, own_side client p = true -> accepts client p = false.
Proof.
  intros [] p H; unfold own_side in H; repeat rewrite orb_true_iff in H;
    destruct H as [[[H|H]|H]|H]; apply N.eqb_eq in H; subst p; reflexivity.
Qed.

Theorem session_in_not_own : forall client sid l,
  Forall (fun r : rseg => own_side client (mi_proto (fst r)) = false) (session_in client sid l).
Proof.
  intros client sid l. induction l as [|r t IH]; cbn [session_in]; [constructor|].
  destruct (mi_sid (fst r) =? sid); [|exact IH].
  destruct (accepts client (mi_proto (fst r))) eqn:Ha; [|constructor].
  destruct (is_close (mi_proto (fst r))); [constructor|].
  destruct (is_queued (mi_proto (fst r))); [|exact IH].
  constructor; [|exact IH].
  destruct (own_side client (mi_proto (fst r))) eqn:Eo; [|reflexivity].
  rewrite (own_not_accepted _ _ Eo) in Ha. discriminate Ha.
Qed.

(* all datagrams a socket receives, through the parser *)
Definition udp_recv_all (op : list N -> list N -> option (list N)) (pm : list N -> option minfo)
           (ld : leparams -> N -> list N -> option (list N)) (ds : list (list N)) : list rseg :=
  flat_map (fun d => match udp_parse op pm ld d with Some r => [r] | None => [] end) ds.

Theorem reflection_refused : forall op pm ld client sid,
  (forall s' : list N,
     Forall (fun r : rseg => own_side client (mi_proto (fst r)) = false)
            (session_in client sid (fst (feed op pm ld r_init s')))) /\
  (forall ds : list (list N),
     Forall (fun r : rseg => own_side client (mi_proto (fst r)) = false)
            (session_in client sid (udp_recv_all op pm ld ds))).
Proof. intros. split; intros; apply session_in_not_own. Qed.

Section UdpRelease.
  Variable sent : list (list N).     (* payload of the sequenced segment number i of the sender *)
  Definition genuine (e : uevent) : Prop :=
    match e with UArrive q p => nth_error sent q = Some p | UClose => True | UAck => True end.
  (* an entry of recvBuf *)
  Definition from_sender (kp : nat * list N) : Prop := genuine (UArrive (fst kp) (snd kp)).

  Lemma buf_lookup_in : forall b q p, buf_lookup q b = Some p -> In (q, p) b.
  Proof.
    induction b as [|[k p'] t IH]; intros q p H; cbn [buf_lookup] in H; [discriminate|].
    destruct (k =? q)%nat eqn:E.
    - apply Nat.eqb_eq in E. inversion H. subst. left. reflexivity.
    - right. apply IH, H.
  Qed.

  Lemma buf_remove_from_sender : forall b q, Forall from_sender b -> Forall from_sender (buf_remove q b).
  Proof.
    induction b as [|[k p] t IH]; intros q H; cbn [buf_remove]; [constructor|].
    inversion H; subst. destruct (k =? q)%nat; [apply IH; assumption|constructor; [assumption|apply IH; assumption]].
  Qed.

  Lemma release_from_sender : forall fuel next b n' b' r, Forall from_sender b -> u_release fuel next b = (n', b', r) ->
    firstn n' sent = firstn next sent ++ r /\ Forall from_sender b'.
  Proof.
    induction fuel as [|f IH]; intros next b n' b' r Hg H; cbn [u_release] in H.
    - inversion H; subst. rewrite app_nil_r. split; [reflexivity|exact Hg].
    - destruct (buf_lookup next b) as [p|] eqn:El.
      + destruct (u_release f (S next) (buf_remove next b)) as [[n1 b1] r1] eqn:Er.
        inversion H; subst. destruct (IH _ _ _ _ _ (buf_remove_from_sender _ next Hg) Er) as [H1 H2].
        split; [|exact H2]. rewrite H1.
        assert (Hp : nth_error sent next = Some p).
        { apply buf_lookup_in in El. rewrite Forall_forall in Hg. exact (Hg _ El). }
        rewrite (firstn_snoc_nth _ _ _ Hp), <- app_assoc. reflexivity.
      + inversion H; subst. rewrite app_nil_r. split; [reflexivity|exact Hg].
  Qed.

  Definition u_inv (st : ust) : Prop := u_q st = firstn (u_next st) sent /\ Forall from_sender (u_buf st).

  Lemma u_step_inv : forall st e, genuine e -> u_inv st -> u_inv (u_step st e).
  Proof.
    intros st e He [Hq Hb]. unfold u_step. destruct (u_closed st); [split; assumption|].
    destruct e as [q p| |]; [|split; assumption|split; assumption].
    destruct (q <? u_next st)%nat; [split; assumption|].
    destruct (u_release _ (u_next st) ((q, p) :: buf_remove q (u_buf st))) as [[n1 b1] r1] eqn:Er.
    assert (Hg : Forall from_sender ((q, p) :: buf_remove q (u_buf st))).
    { constructor; [exact He|apply buf_remove_from_sender, Hb]. }
    destruct (release_from_sender _ _ _ _ _ _ Hg Er) as [H1 H2].
    split; cbn [u_q u_next u_buf]; [rewrite Hq, H1; reflexivity|exact H2].
  Qed.

  (* what every genuine event keeps holds after any run of genuine events *)
  Lemma fold_genuine : forall P : ust -> Prop, (forall st e, genuine e -> P st -> P (u_step st e)) ->
    forall evs st, Forall genuine evs -> P st -> P (fold_left u_step evs st).
  Proof.
    intros P HP evs st H. revert st. induction H as [|e t He _ IH]; intros st Hst; cbn [fold_left]; [exact Hst|].
    apply IH, HP; assumption.
  Qed.

  Theorem udp_no_release_across_gap : forall evs, Forall genuine evs ->
    u_q (u_run evs) = firstn (u_next (u_run evs)) sent.
  Proof.
    intros evs H. apply (fold_genuine u_inv u_step_inv evs u_init H). split; [reflexivity|constructor].
  Qed.
End UdpRelease.

(* recvBuf is compared as a map from sequence numbers: re-inserting a segment moves it to the front of the list *)
Definition beq (b1 b2 : list (nat * list N)) : Prop := forall k, buf_lookup k b1 = buf_lookup k b2.
Definition steq (s1 s2 : ust) : Prop :=
  u_next s1 = u_next s2 /\ u_q s1 = u_q s2 /\ u_closed s1 = u_closed s2 /\ beq (u_buf s1) (u_buf s2).

Lemma lookup_remove : forall b q k, buf_lookup k (buf_remove q b) = if (k =? q)%nat then None else buf_lookup k b.
Proof.
  induction b as [|[j p] t IH]; intros q k; cbn [buf_remove buf_lookup].
  - destruct (k =? q)%nat; reflexivity.
  - destruct (j =? q)%nat eqn:Ejq.
    + rewrite IH. apply Nat.eqb_eq in Ejq. subst j. destruct (k =? q)%nat eqn:Ekq; [reflexivity|].
      rewrite Nat.eqb_sym, Ekq. reflexivity.
    + cbn [buf_lookup]. rewrite IH. destruct (j =? k)%nat eqn:Ejk; [|reflexivity].
      apply Nat.eqb_eq in Ejk. subst k. rewrite Ejq. reflexivity.
Qed.

Lemma lookup_insert : forall b q p k,
  buf_lookup k ((q, p) :: buf_remove q b) = if (q =? k)%nat then Some p else buf_lookup k b.
Proof.
  intros b q p k. cbn [buf_lookup]. destruct (q =? k)%nat eqn:E; [reflexivity|].
  rewrite lookup_remove, Nat.eqb_sym, E. reflexivity.
Qed.

Lemma remove_len : forall b q, (length (buf_remove q b) <= length b)%nat.
Proof.
  induction b as [|[j p] t IH]; intros q; cbn [buf_remove length]; [lia|].
  destruct (j =? q)%nat; cbn [length]; specialize (IH q); lia.
Qed.

Lemma remove_len_lt : forall b q p, buf_lookup q b = Some p -> (length (buf_remove q b) < length b)%nat.
Proof.
  induction b as [|[j x] t IH]; intros q p H; cbn [buf_lookup] in H; [discriminate|].
  cbn [buf_remove length]. destruct (j =? q)%nat.
  - pose proof (remove_len t q). lia.
  - cbn [length]. specialize (IH _ _ H). lia.
Qed.

Lemma remove_beq : forall b1 b2 q, beq b1 b2 -> beq (buf_remove q b1) (buf_remove q b2).
Proof. intros b1 b2 q H k. rewrite !lookup_remove, (H k). reflexivity. Qed.

Lemma release_spec : forall fuel next b n' b' r, (length b < fuel)%nat -> u_release fuel next b = (n', b', r) ->
  buf_lookup n' b' = None /\ (next <= n')%nat /\
  (forall k, ~ (next <= k < n')%nat -> buf_lookup k b' = buf_lookup k b).
Proof.
  induction fuel as [|f IH]; intros next b n' b' r Hl H; [lia|].
  cbn [u_release] in H. destruct (buf_lookup next b) as [p|] eqn:El.
  - destruct (u_release f (S next) (buf_remove next b)) as [[n1 b1] r1] eqn:Er. injection H as <- <- <-.
    assert (Hf : (length (buf_remove next b) < f)%nat) by (pose proof (remove_len_lt _ _ _ El); lia).
    destruct (IH _ _ _ _ _ Hf Er) as (H1 & H2 & H3).
    split; [exact H1|]. split; [lia|]. intros k Hk.
    rewrite H3, lookup_remove by lia. destruct (Nat.eqb_spec k next); [lia|reflexivity].
  - injection H as <- <- <-. split; [exact El|]. split; [lia|reflexivity].
Qed.

(* the fuel u_step gives is enough, so the result depends on the buffer as a map only *)
Lemma release_beq : forall f1 f2 next b1 b2 n' c1 r, beq b1 b2 -> (length b1 < f1)%nat -> (length b2 < f2)%nat ->
  u_release f1 next b1 = (n', c1, r) -> exists c2, u_release f2 next b2 = (n', c2, r) /\ beq c1 c2.
Proof.
  induction f1 as [|f1 IH]; intros f2 next b1 b2 n' c1 r Hb H1 H2 H; [lia|]. destruct f2 as [|f2]; [lia|].
  cbn [u_release] in H |- *. rewrite <- (Hb next). destruct (buf_lookup next b1) as [p|] eqn:El.
  - assert (El2 : buf_lookup next b2 = Some p) by (rewrite <- (Hb next); exact El).
    pose proof (remove_len_lt _ _ _ El). pose proof (remove_len_lt _ _ _ El2).
    destruct (u_release f1 (S next) (buf_remove next b1)) as [[n1 d1] r1] eqn:Er. injection H as <- <- <-.
    destruct (IH f2 (S next) _ (buf_remove next b2) _ _ _ (remove_beq _ _ next Hb) ltac:(lia) ltac:(lia) Er) as [c2 [-> C]].
    exists c2. split; [reflexivity|exact C].
  - injection H as <- <- <-. exists b2. split; [reflexivity|exact Hb].
Qed.

Lemma u_step_closed : forall st e, u_closed st = true -> u_step st e = st.
Proof. intros st e H. unfold u_step. rewrite H. reflexivity. Qed.

Lemma u_step_ack : forall st, u_step st UAck = st.
Proof. intros st. unfold u_step. destruct (u_closed st); reflexivity. Qed.

Lemma u_step_old : forall st q p, (q < u_next st)%nat -> u_step st (UArrive q p) = st.
Proof. intros st q p H. unfold u_step. apply Nat.ltb_lt in H. rewrite H. destruct (u_closed st); reflexivity. Qed.

(* the fuel is u_step's S (length b) for b = (q, p) :: buf_remove q (u_buf st) *)
Lemma u_step_new : forall st q p, u_closed st = false -> (u_next st <= q)%nat ->
  u_step st (UArrive q p) =
  let '(n', b', r) := u_release (S (S (length (buf_remove q (u_buf st))))) (u_next st) ((q, p) :: buf_remove q (u_buf st)) in
  mkU n' b' (u_q st ++ r) false.
Proof. intros st q p Hc Hq. unfold u_step. apply Nat.ltb_ge in Hq. rewrite Hc, Hq. reflexivity. Qed.

Lemma step_steq : forall s1 s2 e, steq s1 s2 -> steq (u_step s1 e) (u_step s2 e).
Proof.
  intros s1 s2 e H0. pose proof H0 as [Hn [Hq [Hc Hb]]].
  (* both steps run the same tests *)
  unfold u_step. rewrite <- Hc, <- Hn.
  destruct (u_closed s1); [exact H0|].
  destruct e as [q p| |]; [| |exact H0].
  - destruct (q <? u_next s1)%nat; [exact H0|].
    assert (Hb' : beq ((q, p) :: buf_remove q (u_buf s1)) ((q, p) :: buf_remove q (u_buf s2))).
    { intros k. rewrite !lookup_insert, (Hb k). reflexivity. }
    destruct (u_release _ (u_next s1) ((q, p) :: buf_remove q (u_buf s1))) as [[n1 c1] r1] eqn:E1.
    destruct (release_beq _ _ _ _ _ _ _ _ Hb' (Nat.lt_succ_diag_r _) (Nat.lt_succ_diag_r _) E1) as [c2 [-> C]].
    split; [reflexivity|]. split; [cbn [u_q]; rewrite Hq; reflexivity|]. split; [reflexivity|exact C].
  - split; [reflexivity|]. split; [exact Hq|]. split; [reflexivity|exact Hb].
Qed.

Section UdpReplay.
  Variable sent : list (list N).
  Notation genuine := (genuine sent).

  (* every reachable state has stopped at a missing sequence number *)
  Definition stable (st : ust) : Prop := buf_lookup (u_next st) (u_buf st) = None.
  (* the event has been handed to the session before: the session is closed, or the segment is released, or parked *)
  Definition seen (e : uevent) (st : ust) : Prop :=
    match e with
    | UArrive q p => u_closed st = true \/ (q < u_next st)%nat \/ buf_lookup q (u_buf st) = Some p
    | UClose => u_closed st = true
    | UAck => True
    end.

  Lemma step_arrive : forall st q p, u_closed st = false -> (u_next st <= q)%nat ->
    exists n' b' r, u_step st (UArrive q p) = mkU n' b' (u_q st ++ r) false /\
      buf_lookup n' b' = None /\ (u_next st <= n')%nat /\
      (forall k, (n' <= k)%nat -> buf_lookup k b' = if (q =? k)%nat then Some p else buf_lookup k (u_buf st)).
  Proof.
    intros st q p Hc Hq. rewrite u_step_new by assumption.
    destruct (u_release _ (u_next st) ((q, p) :: buf_remove q (u_buf st))) as [[n' b'] r] eqn:Er.
    destruct (release_spec _ _ _ _ _ _ (Nat.lt_succ_diag_r _) Er) as (H1 & H2 & H4).
    exists n', b', r. split; [reflexivity|]. split; [exact H1|]. split; [exact H2|].
    intros k Hk. rewrite H4 by lia. apply lookup_insert.
  Qed.

  Lemma stable_step : forall st e, stable st -> stable (u_step st e).
  Proof.
    intros st e Hs. destruct (u_closed st) eqn:Hc; [rewrite u_step_closed; assumption|].
    destruct e as [q p| |]; [|unfold u_step; rewrite Hc; exact Hs|rewrite u_step_ack; exact Hs].
    destruct (Nat.lt_ge_cases q (u_next st)) as [Hq|Hq]; [rewrite u_step_old; assumption|].
    destruct (step_arrive st q p Hc Hq) as (n' & b' & r & -> & H1 & _). exact H1.
  Qed.

  Lemma seen_after : forall st e, seen e (u_step st e).
  Proof.
    intros st e. destruct (u_closed st) eqn:Hc; [rewrite u_step_closed by assumption; destruct e; cbn [seen]; auto|].
    destruct e as [q p| |]; cbn [seen]; [|unfold u_step; rewrite Hc; reflexivity|exact I].
    destruct (Nat.lt_ge_cases q (u_next st)) as [Hq|Hq]; [rewrite u_step_old by assumption; auto|].
    destruct (step_arrive st q p Hc Hq) as (n' & b' & r & -> & _ & _ & H3). cbn [u_closed u_next u_buf]. right.
    destruct (Nat.lt_ge_cases q n') as [Hn|Hn]; [left; exact Hn|right].
    rewrite (H3 q Hn), Nat.eqb_refl. reflexivity.
  Qed.

  Lemma seen_step : forall e, genuine e -> forall st e', genuine e' -> seen e st -> seen e (u_step st e').
  Proof.
    intros e Ge st e' Ge' Hs. destruct (u_closed st) eqn:Hc; [rewrite u_step_closed; assumption|].
    destruct e as [q p| |]; cbn [seen] in *; [|congruence|exact I].
    destruct Hs as [Hs|Hs]; [congruence|].
    destruct e' as [q' p'| |]; [|left; unfold u_step; rewrite Hc; reflexivity|rewrite u_step_ack; auto].
    destruct (Nat.lt_ge_cases q' (u_next st)) as [Hq|Hq]; [rewrite u_step_old by assumption; auto|].
    destruct (step_arrive st q' p' Hc Hq) as (n' & b' & r & -> & _ & H2 & H3). cbn [u_closed u_next u_buf]. right.
    destruct (Nat.lt_ge_cases q n') as [Hn|Hn]; [left; exact Hn|right].
    destruct Hs as [Hs|Hs]; [lia|]. rewrite (H3 q Hn). destruct (Nat.eqb_spec q' q) as [->|_]; [|exact Hs].
    (* both are the payload number q of the sender *)
    exact (eq_trans (eq_sym Ge') Ge).
  Qed.

  Lemma redeliver_noop : forall st e, stable st -> seen e st -> steq (u_step st e) st.
  Proof.
    assert (R : forall st, steq st st) by (intros st; repeat split).
    intros st e Hst Hs. destruct (u_closed st) eqn:Hc; [rewrite u_step_closed by assumption; apply R|].
    destruct e as [q p| |]; cbn [seen] in Hs; [|congruence|rewrite u_step_ack; apply R].
    destruct Hs as [Hs|[Hs|Hs]]; [congruence|rewrite u_step_old by assumption; apply R|].
    destruct (Nat.lt_ge_cases q (u_next st)) as [Hq|Hq]; [rewrite u_step_old by assumption; apply R|].
    (* re-inserting what recvBuf holds gives the same map, and nothing is at nextRecv: the release stops at once *)
    assert (Hb : beq ((q, p) :: buf_remove q (u_buf st)) (u_buf st)).
    { intros k. rewrite lookup_insert. destruct (Nat.eqb_spec q k) as [<-|_]; [symmetry; exact Hs|reflexivity]. }
    rewrite u_step_new by assumption. cbn [u_release]. rewrite (Hb (u_next st)), Hst.
    split; [reflexivity|]. split; [apply app_nil_r|]. split; [symmetry; exact Hc|exact Hb].
  Qed.

  Lemma fold_stable : forall evs st, stable st -> stable (fold_left u_step evs st).
  Proof. induction evs as [|e t IH]; intros st H; cbn [fold_left]; [exact H|]. apply IH, stable_step, H. Qed.
  Lemma fold_steq : forall evs s1 s2, steq s1 s2 -> steq (fold_left u_step evs s1) (fold_left u_step evs s2).
  Proof. induction evs as [|e t IH]; intros s1 s2 H; cbn [fold_left]; [exact H|]. apply IH, step_steq, H. Qed.

  Lemma replayed_copy_noop : forall evs1 e evs2 evs3, genuine e -> Forall genuine evs2 ->
    steq (u_run (evs1 ++ e :: evs2 ++ e :: evs3)) (u_run (evs1 ++ e :: evs2 ++ evs3)).
  Proof.
    intros evs1 e evs2 evs3 Ge H2. unfold u_run.
    rewrite !fold_left_app. cbn [fold_left]. rewrite !fold_left_app. cbn [fold_left].
    apply fold_steq, redeliver_noop.
    - apply fold_stable, stable_step, fold_stable. reflexivity.
    - apply (fold_genuine sent (seen e) (seen_step e Ge)); [exact H2|apply seen_after].
  Qed.

  Theorem udp_replayed_copy_is_idempotent : forall evs1 e evs2 evs3,
    Forall genuine (evs1 ++ e :: evs2 ++ evs3) ->
    let a := u_run (evs1 ++ e :: evs2 ++ e :: evs3) in
    let b := u_run (evs1 ++ e :: evs2 ++ evs3) in
    u_next a = u_next b /\ u_q a = u_q b /\ u_closed a = u_closed b.
  Proof.
    intros evs1 e evs2 evs3 H. cbv zeta.
    apply Forall_app in H as [_ H]. apply Forall_cons_iff in H as [Ge H]. apply Forall_app in H as [H2 _].
    destruct (replayed_copy_noop evs1 e evs2 evs3 Ge H2) as (A & B & C & _). repeat split; assumption.
  Qed.
End UdpReplay.

Lemma tab_open_tcp_sound : forall boxes n n' c p,
  tab_open (tcp_tab n boxes) n' c = Some p -> exists k, n' = nonce_add k n /\ nth_error boxes k = Some p.
Proof.
  induction boxes as [|p0 t IH]; intros n n' c p H; cbn [tcp_tab tab_open] in H; [discriminate|].
  destruct (list_eqb n' n && list_eqb c (toy_seal n p0)) eqn:E.
  - inversion H; subst. apply andb_prop in E. destruct E as [E1 _]. apply list_eqb_true in E1.
    exists 0%nat. split; [exact E1|reflexivity].
  - destruct (IH _ _ _ _ H) as [k [Hn Hk]]. exists (S k). split; [exact Hn|exact Hk].
Qed.

Lemma tab_open_sound : forall t n c p, tab_open t n c = Some p -> exists c', In (n, c', p) t.
Proof.
  induction t as [|[[n' c'] p'] t IH]; intros n c p H; cbn [tab_open] in H; [discriminate|].
  destruct (list_eqb n n' && list_eqb c c') eqn:E.
  - inversion H; subst. apply andb_prop in E. destruct E as [E1 E2]. apply list_eqb_true in E1. subst.
    exists c'. left. reflexivity.
  - destruct (IH _ _ _ H) as [c'' Hc]. exists c''. right. exact Hc.
Qed.

Lemma udp_tab_sound : forall mm ll ds n c p, tab_open (udp_tab mm ll ds) n c = Some p ->
  exists s, In (n, s) ds /\ In p (seg_boxes mm ll s).
Proof.
  intros mm ll ds n c p H. apply tab_open_sound in H. destruct H as [c' H].
  unfold udp_tab in H. apply in_concat in H. destruct H as [l [Hl Hin]].
  apply in_map_iff in Hl. destruct Hl as [[n' s] [Hl Hd]]. subst l.
  apply in_map_iff in Hin. destruct Hin as [p' [He Hp]]. inversion He; subst.
  exists s. split; assumption.
Qed.

(* A stream of three segments and a datagram under the table AEAD: the premises of the partial theorems hold of them,
   tampered versions of them witness the refuted statements. *)
Definition ex_now : N := 21000000.
Definition ex_n0 : list N := [1;2;3;4;5;6;7;8;9;10;11;12;13;14;15;16;17;18;19;20;21;22;23;254].
Definition ex_meta (proto seq : N) : minfo := mkMinfo proto 0 ex_now 77 seq 0 0 0 0 100 0 0 0 0 0.
Definition ex_s1 : segment := mkSeg (mkMinfo pOpenResp 0 ex_now 77 0 0 0 0 0 0 0 0 0 0 0) [] [] [9; 9] false.
Definition ex_s2 : segment := mkSeg (ex_meta pDataS2C 1) [101; 102; 103] [8] [7; 7; 7] false.
Definition ex_s3 : segment := mkSeg (ex_meta pDataS2C 2) [104; 105] [] [] false.
Definition ex_segs : list segment := [ex_s1; ex_s2; ex_s3].
Definition ex_boxes : list (list N) := stream_boxes meta_marshal_c le_len_id ex_segs.
Definition ex_open := tab_open (tcp_tab ex_n0 ex_boxes).
Definition ex_stream : list N := serialize toy_seal meta_marshal_c le_len_id le_encode_id false ex_n0 ex_segs.
Definition ex_feed (s : list N) := feed ex_open (meta_parse_c ex_now) le_decode_id r_init s.
Definition ex_deliver := deliver le_len_id.

(* length of the first segment on the wire: nonce 24 + box 48 + suffix 2 *)
Definition ex_len1 : nat := 74.
(* the attack: drop the first segment, rewrite the nonce header to n0 + 1 *)
Definition ex_skiphead : list N := nonce_add 1 ex_n0 ++ skipn ex_len1 ex_stream.

(* a tampered stream: one byte of the payload tag of the second segment replaced *)
Definition ex_flip : list N := splice 130 1 [200] ex_stream.
Lemma ex_layout : length ex_stream = (74 + (48 + 1 + 19 + 3) + (48 + 18))%nat /\ ex_len1 = 74%nat.
Proof. vm_compute. split; reflexivity. Qed.
(* the second and the third segment on the wire *)
Definition ex_b2 : list N := firstn 71 (skipn 74 ex_stream).
Definition ex_b3 : list N := skipn 145 ex_stream.
(* padding bytes replaced, lengths kept *)
Definition ex_padchg : list N := splice 72 2 [0; 255] (splice 122 1 [33] ex_stream).

Lemma ex_skiphead_delivers : fst (ex_feed ex_skiphead) = map ex_deliver [ex_s2; ex_s3].
Proof. vm_compute. reflexivity. Qed.

(* the counter is a big endian number: its low 16 bits after j steps *)
Lemma ex_nonce_low : forall j, (j <= 5)%nat ->
  256 * nth 22 (nonce_add j ex_n0) 0 + nth 23 (nonce_add j ex_n0) 0 = 6142 + N.of_nat j.
Proof. intros j Hj. do 6 (destruct j as [|j]; [reflexivity|]). lia. Qed.

Lemma ex_nonce_distinct : forall i k, (i <= length ex_boxes)%nat -> (k < length ex_boxes)%nat ->
  nonce_add i ex_n0 = nonce_add k ex_n0 -> i = k.
Proof.
  change (length ex_boxes) with 5%nat. intros i k Hi Hk H.
  pose proof (ex_nonce_low i Hi) as Li. rewrite H, ex_nonce_low in Li by lia. lia.
Qed.

Lemma ex_sent_ok : forall s, In s ex_segs ->
  meta_parse_c ex_now (meta_marshal_c (fill_meta le_len_id s)) = Some (fill_meta le_len_id s) /\
  (mi_plen (fill_meta le_len_id s) =? 0) = is_nil (s_payload s).
Proof. intros s [H|[H|[H|[]]]]; subst s; vm_compute; split; reflexivity. Qed.

Theorem tcp_prefix_refuted :
  exists (open : list N -> list N -> option (list N)) (parse_meta : list N -> option minfo)
         (le_decode : leparams -> N -> list N -> option (list N)) (marshal_meta : minfo -> list N)
         (le_len : leparams -> N -> N) (segs : list segment) (n0 s' : list N),
    (forall n c p, open n c = Some p ->
       exists k, n = nonce_add k n0 /\ nth_error (stream_boxes marshal_meta le_len segs) k = Some p) /\
    (forall i k, (i <= length (stream_boxes marshal_meta le_len segs))%nat ->
       (k < length (stream_boxes marshal_meta le_len segs))%nat -> nonce_add i n0 = nonce_add k n0 -> i = k) /\
    (forall s, In s segs -> parse_meta (marshal_meta (fill_meta le_len s)) = Some (fill_meta le_len s) /\
                            (mi_plen (fill_meta le_len s) =? 0) = is_nil (s_payload s)) /\
    length n0 = nonceLen /\
    ~ exists j, fst (feed open parse_meta le_decode r_init s') = map (deliver le_len) (firstn j segs).
Proof.
  exists ex_open, (meta_parse_c ex_now), le_decode_id, meta_marshal_c, le_len_id, ex_segs, ex_n0, ex_skiphead.
  split; [intros n c p; apply tab_open_tcp_sound|]. split; [exact ex_nonce_distinct|]. split; [exact ex_sent_ok|].
  split; [reflexivity|].
  (* a non-empty prefix of what was sent starts with segment 1 (an open response), the delivery with segment 2 (data) *)
  intros [j H]. change (fst (ex_feed ex_skiphead) = map ex_deliver (firstn j ex_segs)) in H.
  rewrite ex_skiphead_delivers in H. destruct j as [|j]; discriminate H.
Qed.

(* a datagram whose payload is as long as a metadata block *)
Definition ex_pl32 : list N := map N.of_nat (seq 1 32).
Definition ex_u : segment := mkSeg (ex_meta pDataS2C 1) ex_pl32 [8; 8] [7] false.
Definition ex_sent : list (list N * segment) := [(ex_n0, ex_u); (nonce_inc ex_n0, ex_s3)].
Definition ex_uopen := tab_open (udp_tab meta_marshal_c le_len_id ex_sent).
Definition ex_dgram : list N := udp_encode toy_seal meta_marshal_c le_len_id le_encode_id ex_n0 ex_u.
Definition ex_uparse := udp_parse ex_uopen (meta_parse_c ex_now) le_decode_id.
(* the payload box (offset 72 + 2, 48 bytes) overwritten with the metadata box (offset 24, 48 bytes) *)
Definition ex_dgram_bad : list N := splice 74 48 (firstn 48 (skipn 24 ex_dgram)) ex_dgram.

Lemma ex_udp_bad : ex_uparse ex_dgram_bad = Some (fill_meta le_len_id ex_u, meta_marshal_c (fill_meta le_len_id ex_u))
  /\ length ex_dgram_bad = length ex_dgram.
Proof. vm_compute. split; reflexivity. Qed.

Lemma ex_nonce_once : forall n s1 s2, In (n, s1) ex_sent -> In (n, s2) ex_sent -> s1 = s2.
Proof.
  assert (D : nonce_inc ex_n0 <> ex_n0) by (vm_compute; discriminate).
  intros n s1 s2 [H1|[H1|[]]] [H2|[H2|[]]]; apply pair_equal_spec in H1, H2;
    destruct H1 as [<- <-], H2 as [E <-]; congruence.
Qed.

Lemma ex_usent_ok : forall n s, In (n, s) ex_sent ->
  meta_parse_c ex_now (meta_marshal_c (fill_meta le_len_id s)) = Some (fill_meta le_len_id s) /\
  (mi_plen (fill_meta le_len_id s) =? 0) = is_nil (s_payload s).
Proof. intros n s [H|[H|[]]]; inversion H; subst; vm_compute; split; reflexivity. Qed.

Lemma ex_payload_not_meta : forall n s, In (n, s) ex_sent -> is_nil (s_payload s) = false ->
  meta_parse_c ex_now (s_payload s) = None.
Proof. intros n s [H|[H|[]]] _; inversion H; subst; vm_compute; reflexivity. Qed.

Theorem udp_same_payload_refuted :
  exists (open : list N -> list N -> option (list N)) (parse_meta : list N -> option minfo)
         (le_decode : leparams -> N -> list N -> option (list N)) (marshal_meta : minfo -> list N)
         (le_len : leparams -> N -> N) (sent : list (list N * segment)) (d : list N),
    (forall n c p, open n c = Some p -> exists s, In (n, s) sent /\ In p (seg_boxes marshal_meta le_len s)) /\
    (forall n s1 s2, In (n, s1) sent -> In (n, s2) sent -> s1 = s2) /\
    (forall n s, In (n, s) sent -> parse_meta (marshal_meta (fill_meta le_len s)) = Some (fill_meta le_len s) /\
                                   (mi_plen (fill_meta le_len s) =? 0) = is_nil (s_payload s)) /\
    (forall n s, In (n, s) sent -> is_nil (s_payload s) = false -> parse_meta (s_payload s) = None) /\
    exists mi pl, udp_parse open parse_meta le_decode d = Some (mi, pl) /\
      ~ exists s, In (firstn nonceLen d, s) sent /\ pl = s_payload s.
Proof.
  exists ex_uopen, (meta_parse_c ex_now), le_decode_id, meta_marshal_c, le_len_id, ex_sent, ex_dgram_bad.
  split; [intros n c p; apply udp_tab_sound|]. split; [exact ex_nonce_once|]. split; [exact ex_usent_ok|].
  split; [exact ex_payload_not_meta|].
  exists (fill_meta le_len_id ex_u), (meta_marshal_c (fill_meta le_len_id ex_u)).
  split; [apply ex_udp_bad|].
  intros [s [[H|[H|[]]] Hp]]; inversion H; subst; vm_compute in Hp; discriminate Hp.
Qed.

(* the reflection of the TCP example: the client is fed its own second segment behind its own nonce + 1 *)
Definition ex_c1 : segment := mkSeg (mkMinfo pOpenReq 0 ex_now 77 0 0 0 0 0 0 0 0 0 0 0) [] [] [5] false.
Definition ex_c2 : segment := mkSeg (ex_meta pDataC2S 1) [201; 202; 203] [] [6] false.
Definition ex_csegs : list segment := [ex_c1; ex_c2].
(* the client's first nonce: any nonce the server's counter does not reach *)
Definition ex_cn0 : list N := map (fun b => (b + 100) mod 256) ex_n0.
Definition ex_cstream : list N := serialize toy_seal meta_marshal_c le_len_id le_encode_id false ex_cn0 ex_csegs.
(* the key is shared: the client's receiver opens the boxes of both directions *)
Definition ex_open2 := tab_open (tcp_tab ex_n0 ex_boxes ++ tcp_tab ex_cn0 (stream_boxes meta_marshal_c le_len_id ex_csegs)).
Definition ex_reflect : list N := nonce_add 1 ex_cn0 ++ skipn (24 + 48 + 1) ex_cstream.

(* the client's own data datagram (same key, same session id) between two genuine server datagrams *)
Definition ex_sent3 : list (list N * segment) := [(ex_n0, ex_u); (nonce_inc ex_n0, ex_s3); (ex_cn0, ex_c2)].
Definition ex_uopen3 := tab_open (udp_tab meta_marshal_c le_len_id ex_sent3).
Definition ex_dg (n : list N) (s : segment) : list N := udp_encode toy_seal meta_marshal_c le_len_id le_encode_id n s.
Definition ex_recv3 (ds : list (list N)) : list rseg := udp_recv_all ex_uopen3 (meta_parse_c ex_now) le_decode_id ds.

Theorem udp_reflection_closes_session_refuted :
  exists (op : list N -> list N -> option (list N)) (pm : list N -> option minfo)
         (ld : leparams -> N -> list N -> option (list N)) (client : bool) (sid : N)
         (ds1 : list (list N)) (d : list N) (ds2 : list (list N)) (r : rseg),
    udp_parse op pm ld d = Some r /\ own_side client (mi_proto (fst r)) = true /\ mi_sid (fst r) = sid /\
    session_in client sid (udp_recv_all op pm ld (ds1 ++ d :: ds2)) <>
    session_in client sid (udp_recv_all op pm ld (ds1 ++ ds2)).
Proof.
  exists ex_uopen3, (meta_parse_c ex_now), le_decode_id, true, 77,
         [ex_dg ex_n0 ex_u], (ex_dg ex_cn0 ex_c2), [ex_dg (nonce_inc ex_n0) ex_s3], (ex_deliver ex_c2).
  split; [vm_compute; reflexivity|]. split; [reflexivity|]. split; [reflexivity|].
  vm_compute. discriminate.
Qed.
