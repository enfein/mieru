(* C01 - the receiver-side hand-off never loses a parsed segment while the session is open. *)
From Coq Require Import List NArith Arith Lia.
From M Require Import model.TcpStream proofs.TcpStreamProofs.
Import ListNotations.
Open Scope N_scope.

Lemma h_deliver_open : forall cap st, h_closed st = false ->
  h_closed (h_deliver cap st) = false /\ h_flat (h_deliver cap st) = h_flat st /\
  (length (rd_queue (h_rd (h_deliver cap st))) <= Nat.max cap (length (rd_queue (h_rd st))))%nat.
Proof.
  intros cap st Ho. unfold h_deliver, wait_space. rewrite Ho.
  destruct (h_pending st) as [|p t] eqn:Ep; [repeat split; try assumption; lia|].
  destruct (length (rd_queue (h_rd st)) <? cap)%nat eqn:E; [|repeat split; try assumption; lia].
  cbn [h_closed h_rd rd_queue]. split; [reflexivity|]. split.
  - unfold h_flat, rd_flat. cbn [h_rd h_pending rd_unread rd_queue]. rewrite Ep, concat_snoc. cbn [concat].
    rewrite <- !app_assoc. reflexivity.
  - apply Nat.ltb_lt in E. rewrite app_length. cbn [length]. lia.
Qed.

Theorem backpressure_lossless : forall cap evs st,
  h_closed st = false -> no_close evs = true ->
  let (outs, st') := run_h cap st evs in
  h_closed st' = false /\
  concat outs ++ h_flat st' = h_flat st ++ concat (parsed_of evs) /\
  (length (rd_queue (h_rd st')) <= Nat.max cap (length (rd_queue (h_rd st))))%nat.
Proof.
  intros cap evs. induction evs as [|e t IH]; intros st Ho Hn.
  - cbn. rewrite app_nil_r. repeat split; try assumption; lia.
  - destruct e as [p| |k|]; cbn [run_h parsed_of no_close] in *.
    + specialize (IH (mkH (h_pending st ++ [p]) (h_rd st) (h_closed st)) Ho Hn).
      destruct (run_h cap (mkH (h_pending st ++ [p]) (h_rd st) (h_closed st)) t) as [outs st'].
      destruct IH as [A [B C]]. split; [exact A|]. split; [|exact C].
      rewrite B. unfold h_flat. cbn [h_rd h_pending concat]. rewrite concat_snoc, <- !app_assoc. reflexivity.
    + destruct (h_deliver_open cap st Ho) as [D1 [D2 D3]].
      specialize (IH (h_deliver cap st) D1 Hn). destruct (run_h cap (h_deliver cap st) t) as [outs st'].
      destruct IH as [A [B C]]. split; [exact A|]. split; [rewrite B, D2; reflexivity|lia].
    + destruct (read1_spec k (h_rd st)) as [R1 _]. pose proof (read1_queue_le k (h_rd st)) as RQ.
      destruct (read1 k (h_rd st)) as [o rd'] eqn:ER. cbn [fst snd] in *.
      specialize (IH (mkH (h_pending st) rd' (h_closed st)) Ho Hn).
      destruct (run_h cap (mkH (h_pending st) rd' (h_closed st)) t) as [outs st'].
      destruct IH as [A [B C]]. cbn [h_rd] in C. split; [exact A|]. split; [|lia].
      cbn [concat]. rewrite <- app_assoc, B. unfold h_flat. cbn [h_rd h_pending]. rewrite <- R1, <- !app_assoc. reflexivity.
    + discriminate Hn.
Qed.

Corollary backpressure_complete : forall cap evs,
  no_close evs = true ->
  let (outs, st') := run_h cap (mkH [] (mkRd [] []) false) evs in
  h_flat st' = [] -> concat outs = concat (parsed_of evs).
Proof.
  intros cap evs Hn. pose proof (backpressure_lossless cap evs (mkH [] (mkRd [] []) false) eq_refl Hn) as H.
  destruct (run_h cap (mkH [] (mkRd [] []) false) evs) as [outs st']. destruct H as [_ [B _]].
  intros E. rewrite E, app_nil_r in B. exact B.
Qed.

Lemma h_deliver_progress : forall cap st p t, h_closed st = false -> h_pending st = p :: t ->
  (length (rd_queue (h_rd st)) < cap)%nat ->
  h_pending (h_deliver cap st) = t /\ rd_queue (h_rd (h_deliver cap st)) = rd_queue (h_rd st) ++ [p].
Proof.
  intros cap st p t Ho Ep Hl. unfold h_deliver, wait_space. rewrite Ho, Ep.
  apply Nat.ltb_lt in Hl. rewrite Hl. split; reflexivity.
Qed.

(* non-vacuity: capacity 2, five segments, the reader sleeps while the input loop keeps trying, then reads *)
Definition ex_bp_evs : list hev :=
  [HParsed [1; 2]; HParsed [3]; HParsed [4; 5; 6]; HDeliver; HDeliver; HDeliver; HDeliver; HParsed [7]; HParsed [8; 9];
   HDeliver; HRead 2; HDeliver; HRead 100; HDeliver; HDeliver; HDeliver; HRead 100].
Example ex_backpressure :
  run_h 2 (mkH [] (mkRd [] []) false) ex_bp_evs =
  ([[1; 2]; [3; 4; 5; 6]; [7; 8; 9]], mkH [] (mkRd [] []) false).
Proof. vm_compute. reflexivity. Qed.
Example ex_backpressure_thm :
  let (outs, st') := run_h 2 (mkH [] (mkRd [] []) false) ex_bp_evs in
  h_closed st' = false /\ concat outs ++ h_flat st' = h_flat (mkH [] (mkRd [] []) false) ++ concat (parsed_of ex_bp_evs) /\
  (length (rd_queue (h_rd st')) <= Nat.max 2 0)%nat.
Proof. apply (backpressure_lossless 2 ex_bp_evs (mkH [] (mkRd [] []) false)); reflexivity. Qed.
(* contrast: an input loop whose wait gives up while the session is open loses [4;5;6] *)
Example ex_bounded_wait_loses :
  let st := mkH [[4; 5; 6]; [7]] (mkRd [] [[1; 2]; [3]]) false in
  h_flat (h_deliver_bounded_wait 2 st) = [1; 2; 3; 7] /\ h_flat (h_deliver 2 st) = [1; 2; 3; 4; 5; 6; 7].
Proof. vm_compute. split; reflexivity. Qed.
