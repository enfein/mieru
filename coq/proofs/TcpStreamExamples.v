(* C01 - non-vacuity: the theorems of proofs/TcpStreamProofs.v applied to concrete instances (toy codecs of
   TcpStreamProofs.v: t_seal ... t_le_decode), and the plan boundaries at the fragment sizes. *)
From Coq Require Import List NArith ZArith Bool Lia.
From M Require Import gen.Consts model.TcpStream proofs.TcpStreamProofs.
From M Require proofs.TamperProofs.
Import ListNotations.
Open Scope N_scope.

Lemma mode_ok_0 : mode_ok 0. Proof. apply Nat.ltb_lt. reflexivity. Qed.
Lemma mode_ok_1 : mode_ok 1. Proof. apply Nat.ltb_lt. reflexivity. Qed.

(* The boundary examples below are about 32768 byte writes.  vm_compute decides them at once, but a checker without
   a virtual machine (coqchk) replays that with the kernel's reduction, which is slow on 32768 in unary nat
   (frag_size, nfrag, length) and on 32 KiB lists.  Kind, sequence number, fragment number and payload length of the
   segments planned for one chunk sequence depend on the length written only: [shape_chunks] computes them in N, and
   the examples are evaluated on it. *)
Fixpoint shape_frags (proto fs : N) (k : nat) (seq len : N) : list (N * N * N * N) :=
  match k with
  | O => []
  | S j => (proto, seq, N.of_nat j, N.min fs len) :: shape_frags proto fs j (seq + 1) (len - fs)
  end.

Definition shape_chunk (client : bool) (mode seq len : N) : list (N * N * N * N) :=
  shape_frags (data_proto client (negb (mode =? 0))) (frag_sizeN mode)
              (N.to_nat (nfragN (frag_sizeN mode) len)) seq len.

Fixpoint shape_chunks (fuel : nat) (client : bool) (mode seq len : N) : list (N * N * N * N) :=
  match fuel with
  | O => []
  | S f =>
    if len =? 0 then []
    else let c := shape_chunk client mode seq (N.min (Z.to_N C01_maxPDU) len) in
         c ++ shape_chunks f client mode (seq + lenN c) (len - Z.to_N C01_maxPDU)
  end.

Lemma lenN_firstn : forall n (l : list N), lenN (firstn n l) = N.min (N.of_nat n) (lenN l).
Proof. intros. unfold lenN. rewrite firstn_length. apply Nat2N.inj_min. Qed.
Lemma lenN_skipn : forall n (l : list N), lenN (skipn n l) = lenN l - N.of_nat n.
Proof. intros. unfold lenN. rewrite skipn_length. apply Nat2N.inj_sub. Qed.
Lemma lenN_pview : forall l, lenN (pview l) = lenN l.
Proof. intros. unfold lenN, pview. rewrite map_length. reflexivity. Qed.
Lemma pview_app : forall l1 l2, pview (l1 ++ l2) = pview l1 ++ pview l2.
Proof. intros. apply map_app. Qed.

Lemma pview_plan_frags : forall proto fs k seq b,
  pview (plan_frags proto fs k seq b) = shape_frags proto (N.of_nat fs) k seq (lenN b).
Proof.
  induction k as [|k IH]; intros seq b; [reflexivity|].
  rewrite plan_frags_S. unfold pview in *. cbn [map shape_frags p_proto p_seq p_frag p_payload].
  rewrite IH, lenN_firstn, lenN_skipn. reflexivity.
Qed.

Lemma pview_plan_chunk : forall client mode seq b,
  pview (plan_chunk client mode seq b) = shape_chunk client mode seq (lenN b).
Proof.
  intros. unfold plan_chunk, shape_chunk.
  rewrite pview_plan_frags, <- (Nat2N.id (nfrag _ _)), nfrag_N, frag_size_N. reflexivity.
Qed.

Lemma pview_plan_chunks : forall fuel client mode seq b,
  pview (plan_chunks fuel client mode seq b) = shape_chunks fuel client mode seq (lenN b).
Proof.
  induction fuel as [|f IH]; intros client mode seq b; [reflexivity|].
  destruct b as [|x t]; [reflexivity|]. cbn [plan_chunks shape_chunks].
  replace (lenN (x :: t) =? 0) with false by (unfold lenN; cbn [length]; lia).
  rewrite pview_app, IH, <- (lenN_pview (plan_chunk _ _ _ _)), pview_plan_chunk.
  rewrite lenN_firstn, lenN_skipn, maxPDU_N. reflexivity.
Qed.

Lemma pview_plan_events_cons : forall client st e t,
  pview (plan_events client st (e :: t)) =
  pview (fst (plan_event client st e)) ++ pview (plan_events client (snd (plan_event client st e)) t).
Proof. intros. cbn [plan_events]. destruct (plan_event client st e). apply pview_app. Qed.

(* a Write of n bytes that is not the first of a client session *)
Lemma pview_write : forall st mode n,
  pview (fst (plan_event false st (WWrite mode (zerosN n)))) = shape_chunks (N.to_nat n) false mode (w_seq st) n.
Proof.
  intros. cbn [plan_event andb fst]. rewrite pview_plan_chunks. unfold lenN, zerosN. rewrite repeat_length, N2Nat.id.
  reflexivity.
Qed.

Example ex_boundaries :
  (N.of_nat (frag_size 0), N.of_nat (frag_size 1), N.of_nat (frag_size 2),
   N.of_nat (nfrag (frag_size 1) (N.to_nat 32764)), N.of_nat (nfrag (frag_size 1) (N.to_nat 32765)),
   N.of_nat (nfrag (frag_size 1) (N.to_nat 32768)), N.of_nat (nfrag (frag_size 0) (N.to_nat 32768)))
  = (32768, 32764, 32768, 1, 2, 2, 1).
Proof. rewrite !nfrag_N, !frag_size_N, !N2Nat.id. reflexivity. Qed.

(* Session.Write at the fragment size boundaries: MODE_32 (fragment 32764) and plain (32768 = maxPDU) *)
Example ex_plan_mode32_32764 :
  pview (plan_events false (mkW 5 false) [WWrite 1 (zerosN 32764)]) = [(11, 5, 0, 32764)].
Proof. rewrite !pview_plan_events_cons, pview_write. reflexivity. Qed.
Example ex_plan_mode32_32768 :
  pview (plan_events false (mkW 5 false) [WWrite 1 (zerosN 32768)]) = [(11, 5, 1, 32764); (11, 6, 0, 4)].
Proof. rewrite !pview_plan_events_cons, pview_write. reflexivity. Qed.
Example ex_plan_32769 :
  pview (plan_events false w_init [WCtl pOpenResp; WWrite 0 (zerosN 32769)]) = [(3, 0, 0, 0); (7, 1, 0, 32768); (7, 2, 0, 1)].
Proof. rewrite !pview_plan_events_cons, pview_write. reflexivity. Qed.

Definition ex_evs : list wevent := [WWrite 0 (zerosN 1025); WCtl pCloseReq; WWrite 1 [1; 2; 3]].
Lemma ex_evs_ok : Forall wevent_ok ex_evs.
Proof.
  constructor; [exact mode_ok_0|]. constructor; [reflexivity|]. constructor; [exact mode_ok_1|]. constructor.
Qed.
Example ex_plan_concat :
  let l := plan_events true w_init ex_evs in
  concat (map p_payload l) = written ex_evs /\ seqs_from 0 l /\ Forall pseg_ok l /\ frag_chain l.
Proof. apply plan_concat. exact ex_evs_ok. Qed.
Example ex_plan_concat_computes :
  pview (plan_events true w_init ex_evs) = [(2, 0, 0, 0); (6, 1, 0, 1025); (4, 2, 0, 0); (10, 3, 0, 3)].
Proof. vm_compute. reflexivity. Qed.

Definition ex_a : list wevent := [WWrite 0 [1; 2; 3]; WWrite 0 [4]].
Definition ex_b : list wevent := [WWrite 0 (zerosN 1025)].
Definition realize (sid : N) (pads : list N) (p : pseg) : segment :=
  mk_seg (p_proto p) sid (p_seq p) (p_frag p) (p_payload p) pads pads.
Definition ex_sa : list segment := map (realize 5 [7]) (plan_events true w_init ex_a).
Definition ex_sb : list segment := map (realize 9 []) (plan_events true w_init ex_b).
Definition ex_ss : list sess := [(5, ex_a, ex_sa); (9, ex_b, ex_sb)].
Definition dseg := mk_seg 0 0 0 0 [] [] [].   (* default of nth below, never reached *)
Definition ex_wire : list segment := [nth 0 ex_sb dseg; nth 0 ex_sa dseg; nth 1 ex_sb dseg; nth 1 ex_sa dseg].
Definition ex_stream : list N := serialize t_seal t_marshal t_le_len t_le_encode false ex_n0 ex_wire.
Definition ex_chunks : list (list N) := [firstn 1 ex_stream; firstn 70 (skipn 1 ex_stream); skipn 71 ex_stream].

Lemma realize_ok : forall sid pads l, Forall2 (realizes sid) (map (realize sid pads) l) l.
Proof. induction l; cbn [map]; constructor; [repeat split|assumption]. Qed.

(* not in the 8.16 library *)
Lemma skipn_skipn_ {A} : forall b a (l : list A), skipn a (skipn b l) = skipn (b + a) l.
Proof. induction b; intros a l; [reflexivity|]. destruct l; [cbn; destruct a; reflexivity|]. cbn. apply IHb. Qed.

Example ex_integrity :
  r_failed (snd (feed_all t_open t_parse t_le_decode r_init ex_chunks)) = false /\
  forall t, In t ex_ss ->
    let q := map snd (recv_queue (demux (sess_id t) (fst (feed_all t_open t_parse t_le_decode r_init ex_chunks)))) in
    let w := written (snd (fst t)) in
    concat q = w /\
    (forall ks, concat (read_all ks q) = firstn (sum_nat ks) w) /\
    (forall ks, (length w <= sum_nat ks)%nat -> concat (read_all ks q) = w) /\
    (forall sched more, arrivals_of sched ++ more = q -> exists rest, concat (run_reads (mkRd [] []) sched) ++ rest = w).
Proof.
  apply (tcp_integrity t_seal t_open t_marshal t_parse t_le_len t_le_encode t_le_decode t_ok t_okle
           t_seal_len t_open_seal t_marshal_len t_parse_marshal t_le_encode_len t_le_round true ex_ss ex_wire ex_n0 ex_chunks).
  - constructor; [|constructor; [|constructor]]; (split; [|apply realize_ok]).
    + constructor; [exact mode_ok_0|]. constructor; [exact mode_ok_0|constructor].
    + constructor; [exact mode_ok_0|constructor].
  - constructor; [cbn; intros [H|[]]; discriminate H|]. constructor; [cbn; intros []|constructor].
  - change (map snd ex_ss) with [ex_sa; ex_sb].
    assert (Ea : ex_sa = [nth 0 ex_sa dseg; nth 1 ex_sa dseg]) by (vm_compute; reflexivity).
    assert (Eb : ex_sb = [nth 0 ex_sb dseg; nth 1 ex_sb dseg]) by (vm_compute; reflexivity).
    rewrite Ea, Eb. unfold ex_wire.
    set (a0 := nth 0 ex_sa dseg). set (a1 := nth 1 ex_sa dseg). set (b0 := nth 0 ex_sb dseg). set (b1 := nth 1 ex_sb dseg).
    apply (il_cons [[a0; a1]] b0 [b1] []). apply (il_cons [] a0 [a1] [[b1]]).
    apply (il_cons [[a1]] b1 [] []). apply (il_cons [] a1 [] [[]]).
    apply il_nil. constructor; [reflexivity|]. constructor; [reflexivity|constructor].
  - apply t_segs_ok.
  - reflexivity.
  - change (concat ex_chunks = ex_stream). unfold ex_chunks. cbn [concat]. rewrite app_nil_r.
    generalize ex_stream. intros s.
    assert (E : skipn 71 s = skipn 70 (skipn 1 s)) by (symmetry; apply (skipn_skipn_ 1 70 s)).
    rewrite E, firstn_skipn. apply firstn_skipn.
Qed.

(* what the theorem gives on that instance, computed: session 5 reads its 4 bytes with reads of 3 and 9 *)
Example ex_integrity_computes :
  read_all [3%nat; 9%nat] (map snd (recv_queue (demux 5 (fst (feed_all t_open t_parse t_le_decode r_init ex_chunks)))))
  = [[1; 2; 3]; [4]].
Proof. vm_compute. reflexivity. Qed.

Fixpoint list_eqb (a b : list N) : bool :=
  match a, b with
  | [], [] => true
  | x :: a', y :: b' => (x =? y) && list_eqb a' b'
  | _, _ => false
  end.
Lemma list_eqb_eq : forall a b, list_eqb a b = true -> a = b.
Proof.
  induction a as [|x a IH]; intros [|y b] H; cbn in H; try discriminate; [reflexivity|].
  apply andb_true_iff in H. destruct H as [H1 H2]. apply N.eqb_eq in H1. rewrite (IH _ H2), H1. reflexivity.
Qed.

(* the boxes the sender sealed for ex_segs, and an AEAD whose `open` accepts exactly those (INT-CTXT by construction) *)
Definition ex_L : list (list N * list N) := sealed t_marshal t_le_len ex_n0 ex_segs.
Definition tbl_open (n c : list N) : option (list N) :=
  match find (fun e => list_eqb (fst e) n && list_eqb (t_seal (fst e) (snd e)) c) ex_L with
  | Some e => Some (snd e)
  | None => None
  end.
Lemma tbl_int_ctxt : forall n c p, tbl_open n c = Some p -> In (n, p) ex_L.
Proof.
  intros n c p H. unfold tbl_open in H.
  destruct (find _ ex_L) as [[m q]|] eqn:F; [|discriminate H]. inversion H; subst.
  apply find_some in F. destruct F as [Hin Ht]. cbn [fst snd] in *.
  apply andb_true_iff in Ht. destruct Ht as [Ht _]. apply list_eqb_eq in Ht. subst. exact Hin.
Qed.
Definition ex_x : list N := serialize t_seal t_marshal t_le_len t_le_encode false ex_n0 ex_segs.

Example ex_tamper :
  forall x x1, take nonceLen x = Some (ex_n0, x1) ->
    (exists k, fst (feed tbl_open t_parse t_le_decode r_init x) = firstn k (map (deliver t_le_len) ex_segs)) /\
    (forall y, r_failed (snd (feed tbl_open t_parse t_le_decode r_init x)) = true ->
               fst (feed tbl_open t_parse t_le_decode (snd (feed tbl_open t_parse t_le_decode r_init x)) y) = []).
Proof.
  apply (TamperProofs.tamper_prefix tbl_open t_marshal t_parse t_le_len t_le_decode t_ok t_okle t_parse_marshal ex_n0 ex_segs).
  - exact tbl_int_ctxt.
  - (* NoDup by evaluation: the list is its own nodup *)
    set (l := map fst _ ++ _).
    replace l with (nodup (list_eq_dec N.eq_dec) l) by (vm_compute; reflexivity). apply NoDup_nodup.
  - apply t_segs_ok.
Qed.
(* the premise about x is satisfiable, and the conclusion is not trivial: the honest stream delivers everything,
   the stream with one payload byte of the second segment altered delivers exactly the first segment *)
Example ex_tamper_computes :
  take nonceLen ex_x = Some (ex_n0, skipn 24 ex_x) /\
  fst (feed tbl_open t_parse t_le_decode r_init ex_x) = map (deliver t_le_len) ex_segs /\
  (let bad := firstn 143 ex_x ++ [77] ++ skipn 144 ex_x in
   nth 143 ex_x 0 = 4 /\
   fst (feed tbl_open t_parse t_le_decode r_init bad) = firstn 1 (map (deliver t_le_len) ex_segs) /\
   r_failed (snd (feed tbl_open t_parse t_le_decode r_init bad)) = true).
Proof. vm_compute. repeat split; reflexivity. Qed.
