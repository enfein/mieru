(* C01 - the codec premises of the TCP stream theorems discharged: metadata layout = model/Wire.v (round trips:
   proofs/WireProofs.v, C09), low entropy body codec = model/LowEntropy.v (round trip: proofs/LowEntropyProofs.v, C17).
   What stays a condition on the segments (meta_ok_w, le_ok_w) is what the code enforces: Unmarshal refuses a timestamp
   further than a minute from the receiver's clock (an error, never a wrong byte), and the sender's fragment size keeps
   a low entropy payload within 1 .. 8191 chunks. *)
From Coq Require Import List NArith ZArith Bool Lia.
From M Require Import model.TcpStream model.TcpStreamWire proofs.TcpStreamProofs.
From M Require model.Wire proofs.WireProofs model.LowEntropy proofs.LowEntropyProofs.
Import ListNotations.
Open Scope N_scope.

(* [now] and the premise are not needed: the statement has the shape of feed_serialize's premise marshal_len *)
Lemma marshal_len_w : forall now m, meta_ok_w now m = true -> length (marshal_w m) = metaLen.
Proof.
  intros now m _. unfold marshal_w. apply Nat2N.inj.
  destruct (Wire.is_session (mi_proto m)).
  - rewrite (proj1 (WireProofs.marshal_session_length _)). reflexivity.
  - rewrite (proj1 (WireProofs.marshal_data_length _)). reflexivity.
Qed.

Lemma unmarshal_session_of_data : forall d, Wire.is_data_ack (Wire.d_proto d) = true ->
  Wire.is_session (Wire.d_proto d) = false -> Wire.unmarshal_session (Wire.marshal_data d) = None.
Proof.
  intros d Hd H. unfold Wire.unmarshal_session.
  rewrite (proj1 (WireProofs.marshal_data_length d)), N.eqb_refl. cbn [negb].
  change (Wire.byte_at 0 (Wire.marshal_data d)) with (Wire.b8 (Wire.d_proto d)).
  rewrite WireProofs.b8_small by apply WireProofs.is_data_ack_byte, Hd. rewrite H. reflexivity.
Qed.

Lemma of_to_session : forall m,
  mi_lemode m = 0 /\ mi_unack m = 0 /\ mi_window m = 0 /\ mi_frag m = 0 /\ mi_pre m = 0 /\
  mi_mask m = 0 /\ mi_elen m = 0 /\ mi_rot m = 0 -> of_session (to_session m) = m.
Proof. intros [] Z. cbn in *. decompose [and] Z; subst; reflexivity. Qed.
Lemma of_to_data : forall m, mi_status m = 0 -> of_data (to_data m) = m.
Proof. intros [] Z. cbn in *. subst. reflexivity. Qed.

Lemma parse_marshal_w : forall now m, meta_ok_w now m = true -> parse_w now (marshal_w m) = Some m.
Proof.
  intros now m H. unfold meta_ok_w in H. unfold parse_w, marshal_w.
  destruct (within1_u32 now (mi_ts m)) eqn:Hw; [|discriminate H]. cbn [andb] in H.
  destruct (Wire.is_session (mi_proto m)) eqn:Es.
  - rewrite WireProofs.session_roundtrip.
    + cbn [Wire.s_ts to_session]. rewrite Hw, of_to_session; [reflexivity|lia].
    + split; [exact Es|]. cbn [to_session Wire.s_ts Wire.s_sid Wire.s_seq Wire.s_status Wire.s_plen Wire.s_slen].
      change (2 ^ 32) with 4294967296. lia.
  - destruct (Wire.is_data_ack (mi_proto m)) eqn:Ed; [|rewrite !andb_false_r in H; discriminate H].
    rewrite (unmarshal_session_of_data (to_data m) Ed Es), WireProofs.data_ack_roundtrip.
    + cbn [Wire.d_ts to_data]. rewrite Hw, of_to_data; [reflexivity|lia].
    + unfold Wire.data_valid, Wire.le_valid, Wire.data_common_valid, to_data.
      cbn [Wire.d_proto Wire.d_mode Wire.d_ts Wire.d_sid Wire.d_seq Wire.d_unack Wire.d_win Wire.d_frag Wire.d_prefix
           Wire.d_plen Wire.d_slen Wire.d_mask Wire.d_elen Wire.d_rot].
      change (2 ^ 32) with 4294967296. change (2 ^ 16) with 65536.
      destruct (Wire.is_low_entropy (mi_proto m)).
      * right. destruct (Wire.le_meta_ok _ _ _ _ _); lia.
      * left. rewrite Ed. lia.
Qed.

(* not in the 8.16 library *)
Lemma Forall_firstn_ {A} (P : A -> Prop) : forall n l, Forall P l -> Forall P (firstn n l).
Proof. induction n; intros l H; [constructor|]. destruct l; [constructor|]. inversion H; subst. cbn. constructor; auto. Qed.

Section LE.
  Variable seal : list N -> list N -> list N.
  Hypothesis seal_len : forall n p, length (seal n p) = (length p + tagLen)%nat.
  (* LowEntropy.encode is specified on byte values (bytes_ok) *)
  Hypothesis seal_bytes : forall n p, Forall (fun b => b < 256) (seal n p).

  Lemma le_w_laws : forall lp (pb : bool) n p, le_ok_w lp (lenN p) = true ->
    let ct := firstn (length p) (seal n p) in
    length (le_encode_w lp pb ct) = N.to_nat (le_len_w lp (lenN p)) /\
    le_decode_w lp (lenN p) (le_encode_w lp pb ct) = Some ct.
  Proof.
    intros lp pb n p H ct. unfold le_ok_w in H.
    destruct (LowEntropy.validate_params (lp_mode lp) (lp_mask lp) (lp_rot lp)) as [pr|] eqn:V; [|discriminate H].
    destruct (LowEntropyProofs.validate_params_inv _ _ _ _ V) as [c [w [-> [Hm [Hp Hr]]]]].
    assert (Hz : Z.of_N (lenN p) = Z.of_nat (length ct)).
    { unfold ct. rewrite firstn_length, seal_len, Nat.min_l by lia. apply nat_N_Z. }
    unfold lenN in *. rewrite Hz in H.
    (* the bounds le_roundtrip and enc_len_ok ask for are the three conjuncts of H *)
    assert (Hk : lp_mask lp < 2 ^ 32 /\ (1 <= length ct)%nat /\ (LowEntropy.nchunks (Z.of_nat (length ct)) c <= 8191)%Z).
    { change (2 ^ 32) with 4294967296. lia. }
    clear H. destruct Hk as [Hmask [H1 Hc]].
    destruct (LowEntropyProofs.le_roundtrip ct (lp_mode lp) (lp_mask lp) (lp_rot lp) (if pb then 1 else 0) c w)
      as [e [He [Hle [_ [_ Hd]]]]]; try assumption.
    - apply Forall_firstn_, seal_bytes.
    - destruct pb; lia.
    - unfold le_encode_w, le_decode_w, le_len_w.
      rewrite He, Hz, Hd, (LowEntropyProofs.enc_len_ok _ _ c w Hm) by lia. split; [|reflexivity].
      clear - Hle. lia.
  Qed.

End LE.

Section Concrete.
  Variable seal : list N -> list N -> list N.
  Variable open : list N -> list N -> option (list N).
  Hypothesis seal_len : forall n p, length (seal n p) = (length p + tagLen)%nat.
  Hypothesis open_seal : forall n p, open n (seal n p) = Some p.
  Hypothesis seal_bytes : forall n p, Forall (fun b => b < 256) (seal n p).
  Variable now : N.   (* the receiver's clock in minutes *)

  Theorem feed_serialize_concrete : forall (segs : list segment) (n : list N),
    Forall (seg_ok le_len_w (meta_ok_w now) le_ok_w) segs -> length n = nonceLen ->
    feed open (parse_w now) le_decode_w r_init (serialize seal marshal_w le_len_w le_encode_w false n segs) =
    (map (deliver le_len_w) segs, mkR [] (ser_next seal marshal_w le_len_w le_encode_w false n segs) false).
  Proof.
    apply (feed_serialize seal open marshal_w (parse_w now) le_len_w le_encode_w le_decode_w (meta_ok_w now) le_ok_w
             seal_len open_seal (marshal_len_w now) (parse_marshal_w now)).
    - intros lp pb n p H. apply (proj1 (le_w_laws seal seal_len seal_bytes lp pb n p H)).
    - intros lp pb n p H. apply (proj2 (le_w_laws seal seal_len seal_bytes lp pb n p H)).
  Qed.

  Theorem tcp_integrity_concrete : forall client (ss : list sess) wire n0 chunks,
    Forall (sess_ok client) ss -> NoDup (map sess_id ss) ->
    interleave (map snd ss) wire -> Forall (seg_ok le_len_w (meta_ok_w now) le_ok_w) wire -> length n0 = nonceLen ->
    concat chunks = serialize seal marshal_w le_len_w le_encode_w false n0 wire ->
    r_failed (snd (feed_all open (parse_w now) le_decode_w r_init chunks)) = false /\
    forall t, In t ss ->
      let q := map snd (recv_queue (demux (sess_id t) (fst (feed_all open (parse_w now) le_decode_w r_init chunks)))) in
      let w := written (snd (fst t)) in
      concat q = w /\
      (forall ks, concat (read_all ks q) = firstn (sum_nat ks) w) /\
      (forall ks, (length w <= sum_nat ks)%nat -> concat (read_all ks q) = w) /\
      (forall sched more, arrivals_of sched ++ more = q ->
         exists rest, concat (run_reads (mkRd [] []) sched) ++ rest = w).
  Proof.
    apply (tcp_integrity seal open marshal_w (parse_w now) le_len_w le_encode_w le_decode_w (meta_ok_w now) le_ok_w
             seal_len open_seal (marshal_len_w now) (parse_marshal_w now)).
    - intros lp pb n p H. apply (proj1 (le_w_laws seal seal_len seal_bytes lp pb n p H)).
    - intros lp pb n p H. apply (proj2 (le_w_laws seal seal_len seal_bytes lp pb n p H)).
  Qed.
End Concrete.
