(* C01 - Write captures the value of the caller's buffer (and what goes wrong if it only keeps a reference). *)
From Coq Require Import List NArith.
From M Require Import model.TcpStream.
Import ListNotations.
Open Scope N_scope.

Definition allval (q : list qent) : Prop := Forall (fun e => exists v, e = QVal v) q.
(* the payloads of a queue of copies; under allval the buffer argument of resolve is irrelevant (resolve_allval) *)
Definition vals (q : list qent) : list (list N) := map (resolve []) q.

Lemma resolve_allval : forall q buf, allval q -> map (resolve buf) q = vals q.
Proof.
  induction q as [|e q IH]; intros buf H; [reflexivity|]. inversion H as [|? ? [v ->] Hq]; subst.
  cbn [map resolve vals]. f_equal. apply IH. exact Hq.
Qed.

Lemma run_copy_inv : forall steps st, allval (a_queue st) ->
  allval (a_queue (a_run true st steps)) /\
  a_sent (a_run true st steps) ++ vals (a_queue (a_run true st steps)) =
  a_sent st ++ vals (a_queue st) ++ values_written (a_buf st) steps.
Proof.
  induction steps as [|s t IH]; intros st H.
  - cbn. rewrite app_nil_r. split; [exact H|reflexivity].
  - change (a_run true st (s :: t)) with (a_run true (a_step true st s) t).
    destruct s as [b| |]; cbn [a_step values_written].
    + destruct (IH (mkA b (a_queue st) (a_sent st)) H) as [A B]. split; [exact A|exact B].
    + assert (H' : allval (a_queue st ++ [QVal (a_buf st)])).
      { apply Forall_app. split; [exact H|]. constructor; [eexists; reflexivity|constructor]. }
      destruct (IH (mkA (a_buf st) (a_queue st ++ [QVal (a_buf st)]) (a_sent st)) H') as [A B]. split; [exact A|].
      rewrite B. cbn [a_sent a_queue a_buf]. unfold vals. rewrite map_app. cbn [map resolve]. rewrite <- !app_assoc. reflexivity.
    + destruct (IH (mkA (a_buf st) [] (a_sent st ++ map (resolve (a_buf st)) (a_queue st))) (Forall_nil _)) as [A B].
      split; [exact A|]. rewrite B. cbn [a_sent a_queue a_buf vals map]. rewrite (resolve_allval _ _ H), <- !app_assoc. reflexivity.
Qed.

Lemma written_values : forall mode vs, written (map (WWrite mode) vs) = concat vs.
Proof. induction vs as [|v vs IH]; [reflexivity|]. cbn [map written concat]. rewrite IH. reflexivity. Qed.

Theorem write_captures_value : forall steps,
  let st := a_run true a_init (steps ++ [AFlush]) in
  a_queue st = [] /\ a_sent st = values_written [] steps /\
  forall mode, written (map (WWrite mode) (a_sent st)) = concat (values_written [] steps).
Proof.
  intros steps. cbv zeta. unfold a_run. rewrite fold_left_app. cbn [fold_left a_step a_queue a_sent].
  destruct (run_copy_inv steps a_init (Forall_nil _)) as [A B]. fold (a_run true a_init steps).
  cbn [a_init a_sent a_queue a_buf vals map app] in B.
  rewrite (resolve_allval _ _ A), B. split; [reflexivity|]. split; [reflexivity|]. intros mode. apply written_values.
Qed.

Definition alias_witness : list astep := [ASet [1; 1; 1]; AWrite; ASet [2; 2; 2]; AWrite].
Theorem write_alias_refuted :
  values_written [] alias_witness = [[1; 1; 1]; [2; 2; 2]] /\
  a_sent (a_run false a_init (alias_witness ++ [AFlush])) = [[2; 2; 2]; [2; 2; 2]] /\
  a_sent (a_run true a_init (alias_witness ++ [AFlush])) = [[1; 1; 1]; [2; 2; 2]] /\
  exists steps, a_sent (a_run false a_init (steps ++ [AFlush])) <> values_written [] steps.
Proof.
  split; [reflexivity|]. split; [reflexivity|]. split; [reflexivity|].
  exists alias_witness. vm_compute. discriminate.
Qed.

Example ex_write_value :
  let steps := [ASet [1; 2]; AWrite; ASet [9; 9]; AFlush; ASet [3]; AWrite; ASet [4; 5; 6]; AWrite; ASet [0]] in
  a_sent (a_run true a_init (steps ++ [AFlush])) = [[1; 2]; [3]; [4; 5; 6]].
Proof. vm_compute. reflexivity. Qed.
