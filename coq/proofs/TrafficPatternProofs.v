(* Proofs about model/TrafficPattern.v (property C16).  [fixed] is always the rng.FixedInt oracle; the boolean
   [clamp] that follows it in gen_nonce, generate_with, generate and new_config is the repair
   fixes/C16-implicit-minlen-above-explicit-maxlen.diff. *)
From Coq Require Import ZArith List Bool Lia.
From M Require Import gen.Consts model.TrafficPattern.
Import ListNotations.
Local Open Scope Z_scope.

Lemma rng_ok_some lo hi v : rng_ok lo hi (Some v) = true <-> lo <= v <= hi.
Proof. unfold rng_ok. rewrite andb_true_iff, !Z.leb_le. tauto. Qed.

Lemma mem_z_In v l : mem_z v l = true <-> In v l.
Proof.
  unfold mem_z. rewrite existsb_exists. split.
  - intros (x & Hx & E). apply Z.eqb_eq in E. subst. exact Hx.
  - intros H. exists v. split; [exact H | apply Z.eqb_refl].
Qed.

(* Every generated field is [or_else explicit drawn]: the explicit value survives, the field ends up set, and a
   check that passes on the explicit value and on the drawn one passes on the result. *)
Lemma preserved_or_else {A : Type} (o : option A) d : preserved o (or_else o d).
Proof. intros v ->. reflexivity. Qed.

Lemma is_set_or_else {A : Type} (o : option A) d : is_set (or_else o d).
Proof. destruct o; discriminate. Qed.

Lemma or_else_ok {A : Type} (check : option A -> bool) o d :
  check o = true -> check (Some d) = true -> check (or_else o d) = true.
Proof. destruct o; auto. Qed.

(* The validators read a nil sub-message as one with every field unset. *)
Lemma validate_tcp_sub o : validate_tcp o = rng_ok 0 C16_valMaxSleepMs (sub o tf_max_sleep).
Proof. destruct o; reflexivity. Qed.

Lemma validate_nonce_sub o :
  validate_nonce o =
  rng_ok 0 C16_valNonceMinLenMax (sub o np_min) && rng_ok 0 C16_valNonceMaxLenMax (sub o np_max) &&
  (match sub o np_min, sub o np_max with Some a, Some b => a <=? b | _, _ => true end) &&
  forallb hex_ok (hex_of o).
Proof. destruct o; reflexivity. Qed.

Lemma validate_pad_sub o :
  validate_pad o = rng_ok 0 C16_valPadMidMax (sub o pp_mid) && rng_ok 0 C16_valPadEndMax (sub o pp_end).
Proof. destruct o; reflexivity. Qed.

Lemma validate_le_sub o :
  validate_le o = enum_ok C16_leModes (sub o le_mode) && enum_ok C16_leRotations (sub o le_rot).
Proof. destruct o; reflexivity. Qed.

Lemma first_error_iff (b : bool) (k e : Z) : k <> 0 -> (if negb b then k else e) = 0 <-> b = true /\ e = 0.
Proof. destruct b; cbn [negb]; intuition congruence. Qed.

Lemma valid_iff p :
  valid p <-> validate_tcp (tp_tcp p) = true /\ validate_nonce (tp_nonce p) = true /\
              validate_pad (tp_pad p) = true /\ validate_le (tp_le p) = true.
Proof. unfold valid, validate. rewrite !first_error_iff by discriminate. intuition. Qed.

Lemma modes_complete v : 0 <= v < C16_leModeCount -> mem_z v C16_leModes = true.
Proof. unfold C16_leModeCount. intros H. apply mem_z_In. unfold C16_leModes. cbn [In]. lia. Qed.

Lemma rotations_length : Z.of_nat (length C16_leRotations) = C16_leRotationCount.
Proof. reflexivity. Qed.

(* The bounds gen_nonce computes, about variables: explicit bounds [omin], [omax] that pass validation (limits
   [hmin], [hmax]), [d] the implicit minLen, [r] the draw of the implicit maxLen out of [mn, g].  Only the clamp
   keeps an implicit minLen from exceeding an explicit maxLen: the last hypothesis. *)
Lemma nonce_bounds_ok (clamp : bool) omin omax d (r : Z -> Z) hmin g hmax :
  rng_ok 0 hmin omin = true -> rng_ok 0 hmax omax = true ->
  match omin, omax with Some a, Some b => a <=? b | _, _ => true end = true ->
  0 <= d <= hmin -> hmin <= g <= hmax -> draw_ok r ->
  clamp = true \/ omax = None \/ omin <> None ->
  let mn := match omin with
            | Some v => v
            | None => match omax with Some mx => if clamp && (mx <? d) then mx else d | None => d end
            end in
  let mx := match omax with Some v => v | None => mn + r (g + 1 - mn) end in
  rng_ok 0 hmin (Some mn) && rng_ok 0 hmax (Some mx) && (mn <=? mx) = true.
Proof.
  intros Ha Hb Hab Hd Hg Hr Hc mn mx.
  assert (H : (0 <= mn <= hmin /\ 0 <= mx <= hmax) /\ mn <= mx).
  { subst mn mx. destruct omin as [a|], omax as [b|]; rewrite ?rng_ok_some in *.
    - apply Z.leb_le in Hab. lia.
    - pose proof (Hr (g + 1 - a)). lia.
    - assert (clamp = true) as -> by (destruct Hc as [Hc|[Hc|Hc]]; congruence).
      cbn [andb]. destruct (Z.ltb_spec b d); lia.
    - pose proof (Hr (g + 1 - d)). lia. }
  clearbody mn mx. rewrite !andb_true_iff, !rng_ok_some, Z.leb_le. exact H.
Qed.

Section Gen.
  Variable fixed : Z -> hint -> Z.
  Hypothesis Hf : oracle_ok fixed.

  Lemma draw_range lo hi h : lo <= hi -> lo <= fixed (hi - lo + 1) h + lo <= hi.
  Proof. intros H. pose proof (Hf (hi - lo + 1) h). lia. Qed.

  Lemma gen_tcp_valid o seed unlock :
    validate_tcp o = true -> validate_tcp (Some (gen_tcp fixed o seed unlock)) = true.
  Proof.
    rewrite validate_tcp_sub. intros H. cbn [validate_tcp gen_tcp tf_max_sleep].
    apply or_else_ok; [exact H | apply rng_ok_some].
    destruct unlock; [pose proof (draw_range C16_genSleepLoU C16_genSleepHiU (seed, TTcpMaxSleep))|];
      unfold C16_genSleepLoU, C16_genSleepHiU, C16_valMaxSleepMs in *; lia.
  Qed.

  Lemma gen_nonce_valid clamp o seed unlock :
    validate_nonce o = true ->
    (clamp = true \/ sub o np_max = None \/ sub o np_min <> None) ->
    validate_nonce (Some (gen_nonce fixed clamp o seed unlock)) = true.
  Proof.
    rewrite validate_nonce_sub, !andb_true_iff. intros (((Ha & Hb) & Hab) & Hhex) Hc.
    cbn [validate_nonce gen_nonce np_min np_max np_hex].
    apply andb_true_iff. split; [|exact Hhex].
    apply nonce_bounds_ok with (g := C16_genMaxHiU) (r := fun n => fixed n (seed, TNonceMaxLen)); try assumption.
    - destruct unlock;
        [pose proof (draw_range C16_genMinLoU C16_genMinHiU (seed, TNonceMinLen))
        |pose proof (draw_range C16_genMinLoL C16_genMinHiL (seed, TNonceMinLen))];
        unfold C16_genMinLoU, C16_genMinHiU, C16_genMinLoL, C16_genMinHiL, C16_valNonceMinLenMax in *; lia.
    - unfold C16_valNonceMinLenMax, C16_genMaxHiU, C16_valNonceMaxLenMax. lia.
    - intros n. apply Hf.
  Qed.

  Lemma gen_pad_valid o seed unlock :
    validate_pad o = true -> validate_pad (Some (gen_pad fixed o seed unlock)) = true.
  Proof.
    rewrite validate_pad_sub, andb_true_iff. intros [Hm He]. cbn [validate_pad gen_pad pp_mid pp_end].
    apply andb_true_iff. split; apply or_else_ok; try assumption; apply rng_ok_some.
    - pose proof (Hf (C16_maxPaddingLen + 1) (seed, TPadMid)).
      unfold C16_maxPaddingLen, C16_genMidHiU, C16_valPadMidMax in *. lia.
    - destruct unlock; [pose proof (Hf (C16_maxPaddingLen + 1) (seed, TPadEnd))|];
        unfold C16_maxPaddingLen, C16_valPadEndMax in *; lia.
  Qed.

  Lemma gen_le_valid o seed unlock :
    validate_le o = true -> validate_le (Some (gen_le fixed o seed unlock)) = true.
  Proof.
    rewrite validate_le_sub, andb_true_iff. intros [Hm Hr]. cbn [validate_le gen_le le_mode le_rot].
    apply andb_true_iff. split; apply or_else_ok; try assumption; cbn [enum_ok].
    - destruct unlock; [|reflexivity]. apply modes_complete, Hf. reflexivity.
    - apply mem_z_In, nth_In.
      pose proof (Hf C16_leRotationCount (seed, TLeRot)). pose proof rotations_length.
      unfold C16_leRotationCount in *. lia.
  Qed.

  (* the side condition, here as in gen_nonce_valid and nonce_bounds_ok: the clamp, or no explicit maxLen without an
     explicit minLen *)
  Lemma generate_with_valid clamp orig seed unlock :
    valid orig ->
    (clamp = true \/ sub (tp_nonce orig) np_max = None \/ sub (tp_nonce orig) np_min <> None) ->
    valid (generate_with fixed clamp orig seed unlock).
  Proof.
    intros Hv Hc. apply valid_iff in Hv. destruct Hv as (H1 & H2 & H3 & H4).
    apply valid_iff. unfold generate_with; cbn [tp_tcp tp_nonce tp_pad tp_le].
    repeat split.
    - apply gen_tcp_valid; assumption.
    - apply gen_nonce_valid; assumption.
    - apply gen_pad_valid; assumption.
    - apply gen_le_valid; assumption.
  Qed.
End Gen.

(* draws the top of every range *)
Definition ex_oracle : Z -> hint -> Z := fun n _ => n - 1.
Lemma ex_oracle_ok : oracle_ok ex_oracle.
Proof. unfold oracle_ok, ex_oracle. intros; lia. Qed.

(* 0x61 0x62 = "ab" *)
Definition ex_orig : pattern :=
  {| tp_seed := Some 7; tp_unlock := Some true;
     tp_tcp := Some {| tf_enable := Some true; tf_max_sleep := None |};
     tp_nonce := Some {| np_type := Some 3; np_all_udp := None; np_min := None; np_max := Some 0;
                         np_hex := [[97%N; 98%N]] |};
     tp_pad := Some {| pp_mid := Some 0; pp_end := None |};
     tp_le := Some {| le_mode := Some 2; le_rot := None |} |}.

Example ex_orig_valid : valid ex_orig.
Proof. reflexivity. Qed.
Example ex_effective :
  let e := generate ex_oracle true ex_orig 99 in
  valid e /\ sub (tp_nonce e) np_min = Some 0 /\ sub (tp_nonce e) np_max = Some 0 /\
  sub (tp_pad e) pp_mid = Some 0 /\ sub (tp_pad e) pp_end = Some 255 /\
  sub (tp_tcp e) tf_max_sleep = Some 100 /\ sub (tp_le e) le_rot = Some 240.
Proof. vm_compute. repeat split; reflexivity. Qed.
Example ex_invalid : validate {| tp_seed := None; tp_unlock := None; tp_tcp := None; tp_nonce := None;
                                 tp_pad := Some {| pp_mid := Some 256; pp_end := None |}; tp_le := None |} = 3.
Proof. reflexivity. Qed.

Lemma generate_noclamp_invalid fixed orig host_seed n b :
  oracle_ok fixed -> tp_nonce orig = Some n -> np_min n = None -> np_max n = Some b ->
  b < (if getB (tp_unlock orig) then C16_genMinLoU else C16_genMinLoL) ->
  ~ valid (generate fixed false orig host_seed).
Proof.
  intros Hf En Emin Emax Hb Hv. apply valid_iff in Hv. destruct Hv as (_ & H2 & _).
  unfold generate, generate_with in H2. cbn [tp_nonce] in H2. rewrite En in H2.
  cbn [validate_nonce gen_nonce sub np_min np_max] in H2. rewrite Emin, Emax in H2. cbn [andb] in H2.
  rewrite !andb_true_iff, Z.leb_le in H2. destruct H2 as ((_ & Hle) & _).
  destruct (getB (tp_unlock orig));
    [pose proof (draw_range fixed Hf C16_genMinLoU C16_genMinHiU (eff_seed orig host_seed, TNonceMinLen))
    |pose proof (draw_range fixed Hf C16_genMinLoL C16_genMinHiL (eff_seed orig host_seed, TNonceMinLen))];
    unfold C16_genMinLoU, C16_genMinHiU, C16_genMinLoL, C16_genMinHiL in *; lia.
Qed.

Definition c16_witness : pattern :=
  {| tp_seed := Some 1; tp_unlock := None; tp_tcp := None;
     tp_nonce := Some {| np_type := None; np_all_udp := None; np_min := None; np_max := Some 3; np_hex := [] |};
     tp_pad := None; tp_le := None |}.
Example ex_witness_unfixed :
  sub (tp_nonce (generate ex_oracle false c16_witness 0)) np_min = Some 12 /\
  validate (generate ex_oracle false c16_witness 0) = 2 /\
  validate (generate ex_oracle true c16_witness 0) = 0.
Proof. vm_compute. repeat split; reflexivity. Qed.

Lemma gen_preserves_explicit fixed clamp orig seed unlock :
  let e := generate_with fixed clamp orig seed unlock in
  tp_seed e = tp_seed orig /\ tp_unlock e = tp_unlock orig /\
  preserved (sub (tp_tcp orig) tf_enable) (sub (tp_tcp e) tf_enable) /\
  preserved (sub (tp_tcp orig) tf_max_sleep) (sub (tp_tcp e) tf_max_sleep) /\
  preserved (sub (tp_nonce orig) np_type) (sub (tp_nonce e) np_type) /\
  preserved (sub (tp_nonce orig) np_all_udp) (sub (tp_nonce e) np_all_udp) /\
  preserved (sub (tp_nonce orig) np_min) (sub (tp_nonce e) np_min) /\
  preserved (sub (tp_nonce orig) np_max) (sub (tp_nonce e) np_max) /\
  hex_of (tp_nonce e) = hex_of (tp_nonce orig) /\
  preserved (sub (tp_pad orig) pp_mid) (sub (tp_pad e) pp_mid) /\
  preserved (sub (tp_pad orig) pp_end) (sub (tp_pad e) pp_end) /\
  preserved (sub (tp_le orig) le_mode) (sub (tp_le e) le_mode) /\
  preserved (sub (tp_le orig) le_rot) (sub (tp_le e) le_rot).
Proof.
  cbv zeta.
  cbn [generate_with gen_tcp gen_nonce gen_pad gen_le sub hex_of tp_seed tp_unlock tp_tcp tp_nonce tp_pad tp_le
       tf_enable tf_max_sleep np_type np_all_udp np_min np_max np_hex pp_mid pp_end le_mode le_rot].
  repeat split; try apply preserved_or_else.
  (* minLen and maxLen are computed by a match on the explicit value *)
  - intros v ->. reflexivity.
  - intros v ->. reflexivity.
Qed.

Lemma gen_all_set fixed clamp orig seed unlock :
  let e := generate_with fixed clamp orig seed unlock in
  is_set (sub (tp_tcp e) tf_enable) /\ is_set (sub (tp_tcp e) tf_max_sleep) /\
  is_set (sub (tp_nonce e) np_type) /\ is_set (sub (tp_nonce e) np_all_udp) /\
  is_set (sub (tp_nonce e) np_min) /\ is_set (sub (tp_nonce e) np_max) /\
  is_set (sub (tp_pad e) pp_mid) /\ is_set (sub (tp_pad e) pp_end) /\
  is_set (sub (tp_le e) le_mode) /\ is_set (sub (tp_le e) le_rot).
Proof.
  cbv zeta.
  cbn [generate_with gen_tcp gen_nonce gen_pad gen_le sub tp_tcp tp_nonce tp_pad tp_le
       tf_enable tf_max_sleep np_type np_all_udp np_min np_max pp_mid pp_end le_mode le_rot].
  repeat split; try apply is_set_or_else; discriminate.
Qed.

Lemma gen_deterministic f1 f2 clamp orig seed unlock :
  (forall n t, f1 n (seed, t) = f2 n (seed, t)) ->
  generate_with f1 clamp orig seed unlock = generate_with f2 clamp orig seed unlock.
Proof.
  intros E. unfold generate_with. f_equal; f_equal.
  - unfold gen_tcp. rewrite !E. reflexivity.
  - (* with the lets kept the implicit minLen is rewritten once, not at each of its three uses; the maxLen draw
       mentions the let-bound minLen and has to wait for the expansion *)
    cbv delta [gen_nonce] beta. rewrite !E. cbv zeta. rewrite E. reflexivity.
  - unfold gen_pad. rewrite !E. reflexivity.
  - unfold gen_le. rewrite !E. reflexivity.
Qed.

Lemma gen_seed_explicit fixed clamp orig s h1 h2 :
  tp_seed orig = Some s -> generate fixed clamp orig h1 = generate fixed clamp orig h2.
Proof. intros E. unfold generate, eff_seed. rewrite E. reflexivity. Qed.

Lemma nonce_len_in_range draw n nonce_size :
  draw_ok draw ->
  let '(mn, mx) := nonce_rewrite_bounds n nonce_size in
  let len := nonce_rewrite_len draw n nonce_size in
  mn <= len <= mx /\
  mx = Z.min (getZ (np_max n)) nonce_size /\ mn = Z.min (getZ (np_min n)) mx /\
  (getZ (np_min n) <= getZ (np_max n) <= nonce_size ->
     getZ (np_min n) <= len <= getZ (np_max n)).
Proof.
  intros Hd. unfold nonce_rewrite_len, nonce_rewrite_bounds.
  set (a := getZ (np_min n)). set (b := getZ (np_max n)).
  set (mx := if nonce_size <? b then nonce_size else b).
  set (mn := if mx <? a then mx else a).
  assert (Emx : mx = Z.min b nonce_size) by (subst mx; destruct (Z.ltb_spec nonce_size b); lia).
  assert (Emn : mn = Z.min a mx) by (subst mn; destruct (Z.ltb_spec mx a); lia).
  clearbody mx mn.
  destruct (Z.eqb_spec mn mx) as [E|E]; [|pose proof (Hd (mx - mn + 1))]; lia.
Qed.

Definition ex_draw : Z -> Z := fun n => n / 2.
Lemma ex_draw_ok : draw_ok ex_draw.
Proof. unfold draw_ok, ex_draw. intros n Hn. split; [apply Z.div_pos; lia | apply Z.div_lt_upper_bound; lia]. Qed.
Example ex_rewrite :
  nonce_rewrite_len ex_draw {| np_type := Some 1; np_all_udp := None; np_min := Some 4; np_max := Some 30; np_hex := [] |} 24 = 14.
Proof. reflexivity. Qed.

Lemma udp_once all_udp k : udp_packet_patterned all_udp k = (match k with O => true | S _ => all_udp end).
Proof. destruct k, all_udp; reflexivity. Qed.

Lemma stream_always applied all_udp : nonce_pattern_applies true applied all_udp = true.
Proof. reflexivity. Qed.

Lemma max_padding_size_range mtu stream frag existing :
  0 <= max_padding_size mtu stream frag existing <= C16_padHardMax.
Proof.
  unfold max_padding_size. destruct stream; [unfold C16_padHardMax; lia|].
  destruct (Z.leb_spec (mtu - frag - C16_packetOverhead) existing); unfold C16_padHardMax in *; lia.
Qed.

Lemma pad_le_config mtu stream frag existing p pd pos c :
  tp_pad p = Some pd ->
  (pos = 0 /\ pp_mid pd = Some c \/ pos = 1 /\ pp_end pd = Some c) -> 0 <= c ->
  let m := max_padding_tp mtu stream frag existing (Some p) pos in
  m = Z.min (max_padding_size mtu stream frag existing) c /\ 0 <= m <= c /\ (c = 0 -> m = 0) /\
  forall pad, 0 <= pad <= m -> pad <= c.
Proof.
  intros Hp Hpos Hc m.
  assert (Em : m = Z.min (max_padding_size mtu stream frag existing) c).
  { subst m. unfold max_padding_tp. cbn [sub]. rewrite Hp.
    destruct Hpos as [[-> ->]|[-> ->]]; cbn [Z.eqb Pos.eqb]; (destruct (Z.ltb_spec c 0); [lia | reflexivity]). }
  pose proof (max_padding_size_range mtu stream frag existing) as Hr.
  split; [exact Em|]. rewrite Em.
  split; [lia | split; [lia | intros pad; lia]].
Qed.

Lemma pad_unconfigured mtu stream frag existing pos :
  max_padding_tp mtu stream frag existing None pos = max_padding_size mtu stream frag existing.
Proof. reflexivity. Qed.

Example ex_pad : max_padding_tp 1400 false 1000 10 (Some (generate ex_oracle true ex_orig 0)) 0 = 0 /\
                 max_padding_tp 1400 false 1000 10 (Some (generate ex_oracle true ex_orig 0)) 1 = 255 /\
                 max_padding_tp 1400 false 1300 10 (Some (generate ex_oracle true ex_orig 0)) 1 = 2.
Proof. vm_compute. repeat split; reflexivity. Qed.

Lemma client_used_after_In hist : client_used_after hist = true <-> In C16_protoDataC2SLowEntropy hist.
Proof. apply mem_z_In. Qed.

Lemma le_decision_spec tp is_client client_used :
  let '(m, r, send) := le_send_decision tp is_client client_used in
  let '(cm, cr, en) := extract_le tp in
  (send = true -> en = true /\ m = cm /\ r = cr /\ cm <> C16_leModeOff /\ (is_client = true \/ client_used = true)) /\
  (send = false -> m = C16_leModeOff /\ r = C16_leRotNone) /\
  (is_client = true -> send = en) /\
  (en = true -> cm = getZ (sub (sub tp tp_le) le_mode) /\ cr = getZ (sub (sub tp tp_le) le_rot)).
Proof.
  unfold le_send_decision, extract_le.
  (* with the pattern's mode and the two flags fixed both triples are explicit, and each conjunct is an implication
     whose premise is absurd or whose conclusion holds by reflexivity, by E or by the flags *)
  destruct (sub tp tp_le) as [l|]; cbn [sub].
  - destruct (Z.eqb_spec (getZ (le_mode l)) C16_leModeOff) as [E|E]; cbn [negb].
    + repeat split; intros; try discriminate; auto.
    + destruct is_client, client_used; cbn [negb andb]; repeat split; intros; try discriminate; auto.
  - cbn [negb]. repeat split; intros; try discriminate; auto.
Qed.

Lemma server_le_only_after_client tp hist :
  let '(m, r, send) := server_send tp hist in
  (send = true -> In C16_protoDataC2SLowEntropy hist) /\
  (~ In C16_protoDataC2SLowEntropy hist -> send = false /\ m = C16_leModeOff /\ r = C16_leRotNone).
Proof.
  unfold server_send.
  pose proof (le_decision_spec tp false (client_used_after hist)) as H.
  destruct (le_send_decision tp false (client_used_after hist)) as [[m r] send].
  destruct (extract_le tp) as [[cm cr] en].
  destruct H as (H1 & H2 & _ & _).
  rewrite <- client_used_after_In.
  destruct send.
  - destruct (H1 eq_refl) as (_ & _ & _ & _ & [Hc|Hc]); [discriminate|].
    split; [intros _; exact Hc | intros Hn; contradiction].
  - split; [discriminate | intros _; split; [reflexivity | apply H2; reflexivity]].
Qed.

(* once the client has used low entropy the server may go on using it *)
Lemma client_used_monotone h1 h2 : client_used_after h1 = true -> client_used_after (h1 ++ h2) = true.
Proof. unfold client_used_after. rewrite existsb_app. intros ->. reflexivity. Qed.

Example ex_server : server_send (Some ex_orig) [2; 6] = (0, 0, false) /\ server_send (Some ex_orig) [2; 10; 6] = (2, 0, true).
Proof. vm_compute. split; reflexivity. Qed.

Lemma tcp_frag_loop_spec mn k : 1 <= mn -> 1 <= k ->
  forall fuel rem draws, (length rem <= fuel)%nat ->
  concat (frag_loop fuel mn k rem draws) = rem /\
  Forall (fun p => 1 <= Z.of_nat (length p) <= mn + k - 1) (frag_loop fuel mn k rem draws) /\
  (length (frag_loop fuel mn k rem draws) <= length rem)%nat.
Proof.
  intros Hmn Hk. induction fuel as [|f IH]; intros rem draws Hf.
  - destruct rem; [|cbn [length] in Hf; lia]. repeat split; constructor.
  - destruct rem as [|b rem']; [repeat split; constructor|].
    cbn [frag_loop]. set (rem := b :: rem') in *.
    set (take := Z.to_nat (Z.min _ (Z.of_nat (length rem)))).
    assert (Ht : (1 <= take <= length rem)%nat /\ Z.of_nat take <= mn + k - 1).
    { pose proof (Z.mod_pos_bound (hd 0 draws) k ltac:(lia)). subst take rem. cbn [length]. lia. }
    clearbody take rem.
    destruct (IH (skipn take rem) (tl draws)) as (Hc & Hall & Hlen); [rewrite skipn_length; lia|].
    rewrite skipn_length in Hlen.
    cbn [concat length]. rewrite Hc, firstn_skipn. repeat split; [|lia].
    constructor; [rewrite firstn_length_le; lia | exact Hall].
Qed.

Lemma tcp_frag_loop_whole mn k fuel rem draws :
  1 <= k -> rem <> [] -> Z.of_nat (length rem) <= mn -> frag_loop (S fuel) mn k rem draws = [rem].
Proof.
  intros Hk Hne Hle. destruct rem as [|b r]; [contradiction|]. cbn [frag_loop].
  pose proof (Z.mod_pos_bound (hd 0 draws) k ltac:(lia)).
  rewrite Z.min_r, Nat2Z.id by lia. rewrite firstn_all, skipn_all. destruct fuel; reflexivity.
Qed.

Lemma frag_len_bounds n : 0 <= n -> 1 <= frag_min_len n /\ frag_min_len n <= frag_max_len n /\
  (3 <= n -> frag_max_len n < n) /\ (1 <= n <= 2 -> n <= frag_min_len n).
Proof.
  intros Hn. unfold frag_max_len, frag_min_len.
  pose proof (Z.sqrt_spec n Hn) as Hs. cbv zeta in Hs. pose proof (Z.sqrt_nonneg n) as Hp.
  repeat split; try lia; [|nia].
  intros H3. assert (Z.sqrt n + 1 < n) by nia.
  assert (n / 2 < n) by (apply Z.div_lt_upper_bound; lia). lia.
Qed.

Lemma tcp_fragment_plan_spec data draws :
  let n := Z.of_nat (length data) in
  concat (fragment_plan data draws) = data /\
  Forall (fun p => 1 <= Z.of_nat (length p) <= frag_max_len n) (fragment_plan data draws) /\
  (length (fragment_plan data draws) <= length data)%nat /\
  (3 <= n -> (2 <= length (fragment_plan data draws))%nat).
Proof.
  cbv zeta. set (n := Z.of_nat (length data)).
  destruct (frag_len_bounds n ltac:(lia)) as (H1 & H2 & H3 & _).
  unfold fragment_plan. fold n.
  destruct (tcp_frag_loop_spec (frag_min_len n) (frag_max_len n - frag_min_len n + 1) H1 ltac:(lia)
              (length data) data draws (le_n _)) as (Hc & Hall & Hlen).
  replace (frag_min_len n + (frag_max_len n - frag_min_len n + 1) - 1) with (frag_max_len n) in Hall by lia.
  repeat split; try assumption.
  (* from 3 bytes on every piece is shorter than the buffer, so there is more than one *)
  intros Hn3. specialize (H3 Hn3).
  destruct (frag_loop _ _ _ _ _) as [|p [|q r]]; cbn [length]; try lia.
  - cbn in Hc. subst data. cbn in n. lia.
  - cbn [concat] in Hc. rewrite app_nil_r in Hc. subst p.
    inversion Hall as [|? ? Hb _]. fold n in Hb. lia.
Qed.

Lemma fragment_plan_whole data draws :
  data <> [] -> Z.of_nat (length data) <= frag_min_len (Z.of_nat (length data)) -> fragment_plan data draws = [data].
Proof.
  intros Hne Hle. unfold fragment_plan.
  destruct (frag_len_bounds (Z.of_nat (length data)) ltac:(lia)) as (_ & H2 & _).
  destruct data as [|a r]; [contradiction|]. cbn [length] in *.
  apply tcp_frag_loop_whole; [lia | discriminate | exact Hle].
Qed.

Lemma tcp_fragment_same_bytes tp data draws :
  concat (tcp_writes tp data draws) = data /\
  (fragments_enabled tp = true -> Forall (fun p => p <> []) (tcp_writes tp data draws) /\
                                  (length (tcp_writes tp data draws) <= length data)%nat).
Proof.
  unfold tcp_writes. pose proof (tcp_fragment_plan_spec data draws) as (Hc & Hall & Hlen & _).
  destruct (fragments_enabled tp).
  - split; [exact Hc|]. intros _. split; [|exact Hlen].
    eapply Forall_impl; [|exact Hall]. cbv beta. intros p Hp ->. cbn [length] in Hp. lia.
  - split; [cbn; apply app_nil_r | discriminate].
Qed.

Lemma fragments_enabled_iff tp : fragments_enabled tp = true <-> sub (sub tp tp_tcp) tf_enable = Some true.
Proof. unfold fragments_enabled. destruct (sub (sub tp tp_tcp) tf_enable) as [[|]|]; cbn [getB]; split; congruence. Qed.

Lemma frag_sleep_spec tp d :
  let ms := getZ (sub (sub tp tp_tcp) tf_max_sleep) in
  (forall s, frag_sleep tp d = Some s -> 0 <= s <= ms /\ 0 < ms) /\ (ms <= 0 -> frag_sleep tp d = None).
Proof.
  intros ms. unfold frag_sleep. fold ms. destruct (Z.ltb_spec 0 ms); split.
  - intros s [= <-]. pose proof (Z.mod_pos_bound d (ms + 1) ltac:(lia)). lia.
  - lia.
  - discriminate.
  - reflexivity.
Qed.

Lemma tcp_fragment_honoured tp data draws :
  let n := Z.of_nat (length data) in
  (fragments_enabled tp = true ->
     Forall (fun p => 1 <= Z.of_nat (length p) <= Z.max (Z.sqrt n + 1) (n / 2)) (tcp_writes tp data draws) /\
     (3 <= n -> (2 <= length (tcp_writes tp data draws))%nat /\ Z.max (Z.sqrt n + 1) (n / 2) < n)) /\
  (fragments_enabled tp = false -> tcp_writes tp data draws = [data]) /\
  (fragments_enabled tp = true <-> sub (sub tp tp_tcp) tf_enable = Some true) /\
  (forall d s, frag_sleep tp d = Some s ->
     0 <= s <= getZ (sub (sub tp tp_tcp) tf_max_sleep) /\ 0 < getZ (sub (sub tp tp_tcp) tf_max_sleep)) /\
  (getZ (sub (sub tp tp_tcp) tf_max_sleep) <= 0 -> forall d, frag_sleep tp d = None).
Proof.
  cbv zeta. unfold tcp_writes.
  destruct (tcp_fragment_plan_spec data draws) as (_ & Hall & _ & H2).
  destruct (frag_len_bounds (Z.of_nat (length data)) ltac:(lia)) as (_ & _ & Hb & _).
  split; [|split; [|split; [|split]]].
  - intros ->. split; [exact Hall | intros H3; split; [apply H2 | apply Hb]; exact H3].
  - intros ->. reflexivity.
  - apply fragments_enabled_iff.
  - intros d s. apply frag_sleep_spec.
  - intros Hle d. apply frag_sleep_spec, Hle.
Qed.

Lemma tcp_fragment_small data draws :
  (1 <= length data <= 2)%nat -> fragment_plan data draws = [data].
Proof.
  intros H. apply fragment_plan_whole.
  - intros ->. cbn [length] in H. lia.
  - apply frag_len_bounds; lia.
Qed.

Definition ex_tp_frag : option pattern :=
  Some {| tp_seed := None; tp_unlock := None; tp_tcp := Some {| tf_enable := Some true; tf_max_sleep := Some 5 |};
          tp_nonce := None; tp_pad := None; tp_le := None |}.
Example ex_fragments :
  tcp_writes ex_tp_frag [1;2;3;4;5;6;7;8;9;10]%N [0; 7; 2] = [[1;2;3;4]; [5;6;7;8;9]; [10]]%N /\
  tcp_writes None [1;2;3]%N [0] = [[1;2;3]]%N /\
  tcp_writes ex_tp_frag [1;2;3]%N [] = [[1;2]; [3]]%N /\
  frag_sleep ex_tp_frag 17 = Some 5 /\ frag_sleep None 17 = None.
Proof. vm_compute. repeat split; reflexivity. Qed.

Lemma set_nth_length {A} (l : list A) : forall i x, length (set_nth l i x) = length l.
Proof. induction l as [|h t IH]; intros [|i] x; cbn [set_nth length]; auto. Qed.

Lemma set_nth_Forall {A} (P : A -> Prop) (l : list A) : forall i x, Forall P l -> P x -> Forall P (set_nth l i x).
Proof.
  induction l as [|h t IH]; intros [|i] x Hl Hx; cbn [set_nth]; auto; inversion Hl; subst; constructor; auto.
Qed.

Section Srv.
  Variable tp : option pattern.

  Definition blk_ok (b : sblock) : Prop := bk_pattern b = server_nonce_cfg tp.
  Definition dg_ok (d : out_dgram) : Prop :=
    dg_pattern d = server_nonce_cfg tp /\
    (forall np, server_nonce_cfg tp = Some np -> getB (np_all_udp np) = true -> dg_patterned d = true).
  Definition st_ok (st : srv_state) : Prop :=
    Forall blk_ok (st_blocks st) /\
    Forall (fun s => (us_block s < length (st_blocks st))%nat) (st_sessions st).

  Lemma emit_one_ok path b d b' : blk_ok b -> emit_one path b = (d, b') -> dg_ok d /\ blk_ok b'.
  Proof.
    unfold blk_ok, dg_ok, emit_one. intros Hb.
    destruct (bk_pattern b) as [np|] eqn:E; intros [= <- <-]; cbn [dg_pattern dg_patterned bk_pattern];
      rewrite <- Hb.
    - repeat split. intros np' [= <-] ->. destruct (bk_applied b); reflexivity.
    - repeat split; [discriminate | exact E].
  Qed.

  Lemma emit_n_ok path : forall n b ds b', blk_ok b -> emit_n path b n = (ds, b') ->
    Forall dg_ok ds /\ blk_ok b' /\ length ds = n.
  Proof.
    induction n as [|n IH]; intros b ds b' Hb; cbn [emit_n].
    - intros [= <- <-]. repeat split; [constructor | exact Hb].
    - destruct (emit_one path b) as [d b1] eqn:E1. destruct (emit_n path b1 n) as [ds1 b2] eqn:En.
      intros [= <- <-].
      destruct (emit_one_ok _ _ _ _ Hb E1) as (H1 & H2). destruct (IH _ _ _ H2 En) as (I1 & I2 & I3).
      repeat split; [constructor; assumption | exact I2 | cbn [length]; rewrite I3; reflexivity].
  Qed.

  Lemma srv_step_ok st ev ds st1 : st_ok st -> srv_step tp true st ev = (ds, st1) ->
    Forall dg_ok ds /\ st_ok st1 /\ (length ds = ev_out ev \/ length ds = 1%nat).
  Proof.
    intros [Hb Hs]. unfold srv_step.
    (* the block that encrypts the replies: that of a session from the same address, or a discovered one appended
       to the table *)
    destruct (match find (fun s => us_addr s =? _) _ with Some _ => _ | None => _ end)
      as [[path bi] blocks1] eqn:Esel.
    assert (Hsel : Forall blk_ok blocks1 /\ (bi < length blocks1)%nat /\
                   Forall (fun s => (us_block s < length blocks1)%nat) (st_sessions st)).
    { revert Esel. destruct (find _ _) as [s|] eqn:F; intros [= <- <- <-].
      - apply find_some in F. repeat split; [exact Hb | | exact Hs].
        rewrite Forall_forall in Hs. apply Hs, F.
      - rewrite app_length. cbn [length]. repeat split; [| lia |].
        + apply Forall_app. split; [exact Hb | repeat constructor].
        + eapply Forall_impl; [|exact Hs]. cbv beta. intros; lia. }
    clear Esel. destruct Hsel as (Hb1 & Hbi & Hs1).
    (* the sessions afterwards: the one addressed rebound to that block, or a new one added *)
    destruct (match find (fun s => us_sid s =? _) _ with Some _ => _ | None => _ end)
      as [sessions1 n_out] eqn:Eses.
    assert (Hses : Forall (fun s => (us_block s < length blocks1)%nat) sessions1 /\
                   (n_out = ev_out ev \/ n_out = 1%nat)).
    { revert Eses. destruct (find _ _); [|destruct (ev_open ev)]; intros [= <- <-]; (split; [|auto]).
      - apply Forall_map. eapply Forall_impl; [|exact Hs1]. cbv beta. intros s Hlt.
        destruct (us_sid s =? ev_sid ev); [exact Hbi | exact Hlt].
      - apply Forall_app. split; [exact Hs1 | repeat constructor; exact Hbi].
      - exact Hs1. }
    clear Eses. destruct Hses as (Hs2 & Hn).
    destruct (nth_error blocks1 bi) as [b|] eqn:E; [|apply nth_error_None in E; lia].
    apply nth_error_In in E. rewrite Forall_forall in Hb1.
    destruct (emit_n path b n_out) as [ds' b'] eqn:En. intros [= <- <-].
    destruct (emit_n_ok _ _ _ _ _ (Hb1 b E) En) as (I1 & I2 & I3).
    split; [exact I1 | split; [split; cbn [st_blocks st_sessions] | rewrite I3; exact Hn]].
    - apply set_nth_Forall; [apply Forall_forall; exact Hb1 | exact I2].
    - rewrite set_nth_length. exact Hs2.
  Qed.

  Lemma srv_run_ok : forall hist st, st_ok st ->
    Forall2 (fun ev ds => Forall dg_ok ds /\ (length ds = ev_out ev \/ length ds = 1%nat)) hist (srv_run tp true st hist).
  Proof.
    induction hist as [|ev rest IH]; intros st Hst; cbn [srv_run]; [constructor|].
    destruct (srv_step tp true st ev) as [ds st1] eqn:R.
    destruct (srv_step_ok _ _ _ _ Hst R) as (H1 & H2 & H3).
    constructor; [split; assumption | apply IH; exact H2].
  Qed.
End Srv.

(* [discover tp true] ignores the path, so every block of the table carries the configured pattern: [st_ok], from
   the empty state *)
Lemma udp_pattern_independent_of_block_origin tp hist :
  Forall2 (fun ev ds =>
             Forall (fun d => dg_pattern d = server_nonce_cfg tp /\
                              (forall np, server_nonce_cfg tp = Some np -> getB (np_all_udp np) = true ->
                                          dg_patterned d = true)) ds /\
             (length ds = ev_out ev \/ length ds = 1%nat))
          hist (srv_run tp true srv_empty hist).
Proof. apply srv_run_ok. split; constructor. Qed.

Lemma udp_first_datagram_patterned tp path np :
  server_nonce_cfg tp = Some np -> dg_patterned (fst (emit_one path (discover tp true path))) = true.
Proof.
  intros E. unfold discover, emit_one. cbn [orb bk_pattern]. rewrite E. reflexivity.
Qed.

(* [at_discovery = false], the pattern set in onOpenSessionRequest only: after rebinding and for an unknown session
   id the server emits datagrams without the pattern *)
Definition ex_srv_tp : option pattern :=
  Some {| tp_seed := None; tp_unlock := None; tp_tcp := None;
          tp_nonce := Some {| np_type := Some 1; np_all_udp := Some true; np_min := Some 12; np_max := Some 12; np_hex := [] |};
          tp_pad := None; tp_le := None |}.
Definition ex_hist : list in_event :=
  [ {| ev_open := true; ev_sid := 7; ev_addr := 1; ev_out := 2 |};     (* open from address 1 *)
    {| ev_open := false; ev_sid := 7; ev_addr := 1; ev_out := 1 |};    (* data, same address: existing block *)
    {| ev_open := false; ev_sid := 7; ev_addr := 2; ev_out := 2 |};    (* same session from address 2: rediscovered *)
    {| ev_open := false; ev_sid := 9; ev_addr := 3; ev_out := 5 |} ].  (* unknown session id: one close request *)
Example ex_srv_paths :
  map (map dg_path) (srv_run ex_srv_tp true srv_empty ex_hist) =
    [[OriginOpen; OriginOpen]; [OriginExisting]; [OriginRediscovered; OriginRediscovered]; [OriginRediscovered]] /\
  map (map dg_patterned) (srv_run ex_srv_tp true srv_empty ex_hist) = [[true; true]; [true]; [true; true]; [true]] /\
  map (map dg_patterned) (srv_run ex_srv_tp false srv_empty ex_hist) = [[true; true]; [true]; [false; false]; [false]].
Proof. vm_compute. repeat split; reflexivity. Qed.
