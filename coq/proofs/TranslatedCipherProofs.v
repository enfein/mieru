(* pkg/cipher: (c *aeadBlockCipher) increaseNonce of the current source (gen/Translated.v: the receiver's fields
   enableImplicitNonce / implicitNonce are parameters, the assigned field implicitNonce is the result, None = panic)
   equals model/Wire.v's [nonce_inc] (C09) for every non-empty nonce of bytes with implicit nonce mode enabled; it
   panics exactly when the mode is off or the nonce is empty.  Bytes are N in the model and Z in the translation.
   The model is a structural recursion on the reversed nonce, not a fuelled loop: the proof is an induction on the
   part of the nonce not yet wrapped, not an instance of whileP_simulates.  The length below 2^63 (a Go slice
   length) keeps len - 1 - i from wrapping in int. *)
From Coq Require Import ZArith NArith Bool Lia List ZifyN ZifyBool.
From M Require Import gen.Consts base.MiniGo gen.Translated model.Wire proofs.MiniGoProofs proofs.WireProofs.
Import ListNotations.
Local Open Scope Z_scope.

Definition zs (l : list N) : list Z := map Z.of_N l.

Lemma zs_app a b : zs (a ++ b) = zs a ++ zs b.
Proof. apply map_app. Qed.
Lemma zs_repeat0 i : zs (repeat 0%N i) = repeat 0 i.
Proof. induction i; cbn; [reflexivity | f_equal; assumption]. Qed.

Lemma nonce_inc_snoc p x :
  nonce_inc (p ++ [x]) = if ((x + 1) mod 256 =? 0)%N then nonce_inc p ++ [0%N] else p ++ [((x + 1) mod 256)%N].
Proof.
  unfold nonce_inc. rewrite rev_app_distr. cbn [rev app inc_le].
  destruct ((x + 1) mod 256 =? 0)%N; cbn [rev]; [reflexivity | rewrite rev_involutive; reflexivity].
Qed.

Lemma go_add_U8_1 x : go_add (U 8) (Z.of_N x) 1 = Z.of_N ((x + 1) mod 256).
Proof. apply (go_add_U_of_N 8 x 1). Qed.

Lemma go_len_mid a y t : go_len (a ++ y :: t) = Z.of_nat (length a) + 1 + Z.of_nat (length t).
Proof. unfold go_len. rewrite app_length. cbn [length]. lia. Qed.

(* A loop that walks a byte string of length L from its end, on states (brk, bytes, i): it stops at i = L or once
   brk is set; an iteration at index i from the end adds 1 to the byte there and either goes on behind a byte that has
   wrapped to 0 or sets brk.  From i = length t such a loop computes [nonce_inc] of the part p before t and leaves t
   as it is: induction on p from its end. *)
Section CarryLoop.
  Variables (L : Z) (c : bool * list Z * Z -> bool) (b : bool * list Z * Z -> option (bool * list Z * Z)).
  Hypothesis Hc : forall brk l i, c (brk, l, i) = negb brk && (i <? L).
  Hypothesis Hb : forall a x t, go_len (a ++ Z.of_N x :: t) = L ->
    b (false, a ++ Z.of_N x :: t, Z.of_nat (length t)) =
    if ((x + 1) mod 256 =? 0)%N
    then Some (false, a ++ 0 :: t, Z.of_nat (length (0 :: t)))
    else Some (true, a ++ Z.of_N ((x + 1) mod 256) :: t, Z.of_nat (length t)).

  Lemma carry_loop : forall (p : list N) (t : list Z) (f : nat),
    go_len (zs p ++ t) = L -> (length p < f)%nat ->
    exists brk i', whileP f c b (false, zs p ++ t, Z.of_nat (length t)) = Some (brk, zs (nonce_inc p) ++ t, i').
  Proof using Hc Hb.
    intro p. induction p as [|x p IH] using rev_ind; intros t f HL Hf.
    - destruct f as [|f]; [lia|].
      change (Z.of_nat (length t) = L) in HL.
      rewrite whileP_unroll, Hc, <- HL, Z.ltb_irrefl.
      exists false, (Z.of_nat (length t)). reflexivity.
    - destruct f as [|f]; [lia|].
      rewrite app_length in Hf. cbn [length] in Hf.
      rewrite zs_app, <- app_assoc in HL |- *. cbn [zs map app] in HL |- *.
      rewrite whileP_unroll, Hc, (Hb _ _ _ HL), nonce_inc_snoc.
      rewrite go_len_mid in HL.
      assert (Ei : (Z.of_nat (length t) <? L) = true) by lia.
      rewrite Ei. cbn [negb andb].
      destruct ((x + 1) mod 256 =? 0)%N.
      + destruct (IH (0 :: t) f) as (brk & i' & Hw).
        * rewrite go_len_mid. exact HL.
        * lia.
        * exists brk, i'. rewrite Hw, zs_app, <- app_assoc. reflexivity.
      + destruct f as [|f]; [lia|].
        rewrite whileP_unroll, Hc, zs_app, <- app_assoc.
        exists true, (Z.of_nat (length t)). reflexivity.
  Qed.
End CarryLoop.

Theorem xl_increaseNonce_eq_model (n : list N) :
  n <> [] -> Forall byte_ok n -> Z.of_nat (length n) < 2 ^ 63 ->
  xl_cipher_increaseNonce true (zs n) = Some (zs (nonce_inc n)).
Proof.
  intros Hne Hok Hlen.
  unfold xl_cipher_increaseNonce. cbn [negb orb].
  set (L := go_len (zs n)).
  assert (HLn : L = Z.of_nat (length n)) by apply go_len_of_N.
  assert (E0 : (L =? 0) = false) by (destruct n; [contradiction | cbn [length] in HLn; lia]).
  rewrite E0. cbv zeta.
  match goal with |- context [whileP _ ?c0 ?b0 _] => set (c := c0); set (b := b0) end.
  destruct (carry_loop L c b) with (p := n) (t := @nil Z) (f := S (Z.to_nat L)) as (brk & i' & Hw).
  - intros brk l i. reflexivity.
  - (* one iteration: j = len - 1 - i is the index of x *)
    intros a x t HL. subst b. cbv beta iota zeta.
    rewrite !go_len_upd, HL.
    rewrite go_len_mid in HL.
    rewrite (go_sub_I64 L 1), go_sub_I64 by lia.
    replace (L - 1 - Z.of_nat (length t)) with (Z.of_nat (length a)) by lia.
    assert (Eg : (0 <=? Z.of_nat (length a)) && (Z.of_nat (length a) <? L) = true) by lia.
    rewrite Eg. cbn [andb].
    rewrite go_upd_mid, !go_nth_mid, go_add_U8_1, eqb_of_N_0, if_negb.
    destruct ((x + 1) mod 256 =? 0)%N eqn:Ez.
    + apply N.eqb_eq in Ez. rewrite Ez, go_add_I64 by lia.
      replace (Z.of_nat (length t) + 1) with (Z.of_nat (length (0 :: t))) by (cbn [length]; lia). reflexivity.
    + reflexivity.
  - rewrite app_nil_r. reflexivity.
  - rewrite HLn, Nat2Z.id. lia.
  - rewrite !app_nil_r in Hw. change (Z.of_nat (length [])) with 0 in Hw. rewrite Hw. reflexivity.
Qed.

Theorem xl_increaseNonce_panics (n : list Z) :
  xl_cipher_increaseNonce false n = None /\ xl_cipher_increaseNonce true [] = None.
Proof. split; reflexivity. Qed.

(* C09's nonce progression over the translated function: k calls of the source's increaseNonce on a 24-byte nonce *)
Fixpoint xl_nonce_iter (k : nat) (n : list Z) : option (list Z) :=
  match k with
  | O => Some n
  | S k' => match xl_nonce_iter k' n with None => None | Some m => xl_cipher_increaseNonce true m end
  end.

Lemma xl_nonce_iter_eq_model k n : N.of_nat (length n) = NonceSize -> Forall byte_ok n ->
  xl_nonce_iter k (zs n) = Some (zs (nonce_iter k n)).
Proof.
  intros Hl Hok. induction k as [|k IH]; [reflexivity|]. cbn [xl_nonce_iter nonce_iter]. rewrite IH.
  pose proof (nonce_iter_length k n) as Hlen. pose proof (nonce_iter_ok k n Hok) as Hok'.
  assert (E24 : length n = 24%nat) by (unfold NonceSize, C09_NonceSize in Hl; lia).
  apply xl_increaseNonce_eq_model; [ | exact Hok' | rewrite Hlen, E24; reflexivity].
  intro E. rewrite E in Hlen. cbn in Hlen. lia.
Qed.

Lemma zs_inj a b : zs a = zs b -> a = b.
Proof.
  revert b. induction a as [|x a IH]; intros [|y b] H; try discriminate; [reflexivity|].
  cbn in H. inversion H as [[Hx Ht]]. f_equal; [lia | apply IH; exact Ht].
Qed.

Example ex_xl_nonce :
  xl_cipher_increaseNonce true [0; 1; 255; 255] = Some [0; 2; 0; 0] /\
  xl_cipher_increaseNonce true [255; 255] = Some [0; 0] /\ xl_cipher_increaseNonce true [7] = Some [8].
Proof. repeat split; reflexivity. Qed.
