(* The integer helpers of pkg/protocol/low_entropy.go in their current source text (gen/Translated.v) equal the
   functions of model/LowEntropy.v and base/Bits64.v that the C17 theorems are about:
     isValidLowEntropyRotation = valid_rotation      (rotation is an int32 enum)
     lowBits                   = lowbits             (n >= 0; the source panics for n < 0: shift by a negative count)
     rotateLowEntropyMask      = rotate_mask         (math/bits.RotateLeft64 by its specification, MiniGo.go_rotl64)
   and the mode table / encoded length (buildLowEntropyParams, lowEntropyEncodedPayloadLen). *)
From Coq Require Import ZArith NArith Bool Lia.
From M Require Import gen.Consts base.MiniGo base.Bits64 gen.Translated model.LowEntropy.
From M Require Import proofs.MiniGoProofs proofs.Bits64Proofs proofs.LowEntropyProofs.
Open Scope Z_scope.

Lemma in_I32 z : - 2 ^ 31 <= z < 2 ^ 31 -> go_wrap (I 32) z = z.
Proof. intro H. apply wrapS_id; [lia | exact H]. Qed.

Theorem xl_isValidLowEntropyRotation_eq_model r : - 2 ^ 31 <= r < 2 ^ 31 ->
  xl_protocol_isValidLowEntropyRotation r = valid_rotation r.
Proof.
  intro Hr.
  unfold xl_protocol_isValidLowEntropyRotation, valid_rotation, C17_rotNone, C17_rotRight1, C17_rotRight15, C17_rotLeft1, C17_rotLeft15.
  (* both sides are [_ || _ || (_ && _ && _)] and differ in the last test only *)
  f_equal.
  destruct (Z.leb_spec 16 r) as [H16|H16]; [|reflexivity].
  destruct (Z.leb_spec r 240) as [H240|H240]; [|reflexivity].
  cbn [andb]. f_equal.
  unfold go_rem. rewrite in_I32.
  - apply Z.rem_mod_nonneg; lia.
  - destruct (rem_bounds r 16 ltac:(lia)) as [B _]. specialize (B ltac:(lia)). lia.
Qed.

Theorem xl_lowBits_eq_model n : 0 <= n -> xl_protocol_lowBits n = Some (Z.of_N (lowbits (Z.to_N n))).
Proof.
  intro Hn. unfold xl_protocol_lowBits, lowbits.
  destruct (Z.leb_spec 64 n) as [H|H].
  - rewrite (proj2 (N.leb_le 64 (Z.to_N n))) by lia. reflexivity.
  - rewrite (proj2 (N.leb_gt 64 (Z.to_N n))), (proj2 (Z.leb_le 0 n) Hn) by lia.
    f_equal. rewrite N.ones_equiv, N2Z.inj_pred by (apply N.neq_0_lt_0, N.pow_nonzero; discriminate).
    rewrite N2Z.inj_pow, Z2N.id by exact Hn. change (Z.of_N 2) with 2.
    assert (P : 1 <= 2 ^ n < 2 ^ 64) by (split; [pose proof (Z.pow_pos_nonneg 2 n); lia | apply Z.pow_lt_mono_r; lia]).
    unfold go_shl, go_bits. rewrite (proj2 (Z.leb_gt 64 n) H).
    unfold go_sub, go_wrap. rewrite (wrapU_id 64 (1 * 2 ^ n)) by lia. rewrite wrapU_id by lia. lia.
Qed.

(* the source panics on a negative count; the translation says so *)
Theorem xl_lowBits_panics n : n < 0 -> xl_protocol_lowBits n = None.
Proof.
  intro Hn. unfold xl_protocol_lowBits. rewrite (proj2 (Z.leb_gt 64 n)), (proj2 (Z.leb_gt 0 n)) by lia. reflexivity.
Qed.

Lemma go_rotl64_of_N (x : N) (k : Z) : (x < W64)%N ->
  go_rotl64 (Z.of_N x) k = Z.of_N (rotl64 x (Z.to_N (k mod 64))).
Proof.
  intro Hx. unfold go_rotl64.
  assert (Hs : 0 <= k mod 64 < 64) by (apply Z.mod_pos_bound; lia).
  set (s := Z.to_N (k mod 64)). assert (Es : k mod 64 = Z.of_N s) by (subst s; rewrite Z2N.id; lia).
  assert (Hs' : (s < 64)%N) by lia. rewrite Es.
  rewrite go_shl_U64_of_N by exact Hs'.
  replace (64 - Z.of_N s) with (Z.of_N (64 - s)) by lia.
  rewrite go_shr_U_of_N, <- of_N_lor. f_equal.
  unfold rotl64. rewrite N.shiftr_div_pow2.
  pose proof (pow2_split s ltac:(lia)) as E. unfold W64 in E, Hx.
  assert (P1 : (2 ^ (64 - s) <> 0)%N) by (apply N.pow_nonzero; discriminate).
  assert (P2 : (2 ^ s <> 0)%N) by (apply N.pow_nonzero; discriminate).
  rewrite <- E at 1. rewrite N.mul_mod_distr_r by assumption.
  apply lor_shifted_N. apply N.div_lt_upper_bound; [exact P1 | rewrite E; exact Hx].
Qed.

(* a rotation count is (chunk index mod 64) * (an int32 rotation code): it cannot wrap in int *)
Lemma count_in_I64 a b : 0 <= a < 64 -> - 2 ^ 31 <= b < 2 ^ 31 -> - 2 ^ 63 < a * b < 2 ^ 63.
Proof.
  intros Ha [Hb1 Hb2].
  apply (Z.mul_le_mono_nonneg_l _ _ a) in Hb1; [|apply Ha].
  apply Z.lt_le_incl, (Z.mul_le_mono_nonneg_l _ _ a) in Hb2; [|apply Ha].
  lia.
Qed.

Lemma go_mul_count a b : 0 <= a < 64 -> - 2 ^ 31 <= b < 2 ^ 31 -> go_mul (I 64) a b = a * b.
Proof. intros Ha Hb. apply go_mul_I64. split; [apply Z.lt_le_incl|]; apply count_in_I64; assumption. Qed.

Lemma go_cast_I32_I64 b : - 2 ^ 31 <= b < 2 ^ 31 -> go_cast (I 64) b = b.
Proof. intro H. apply go_cast_I64. lia. Qed.

Theorem xl_rotateLowEntropyMask_eq_model (init : N) (rot ci : Z) :
  (init < W64)%N -> - 2 ^ 31 <= rot < 2 ^ 31 -> 0 <= ci < 2 ^ 63 ->
  xl_protocol_rotateLowEntropyMask (Z.of_N init) rot ci = Z.of_N (rotate_mask init rot (Z.to_N ci)).
Proof.
  intros Hi Hr Hc.
  unfold xl_protocol_rotateLowEntropyMask, rotate_mask, C17_rotNone, C17_rotRight15.
  assert (E : ci = Z.of_N (Z.to_N ci)) by (symmetry; apply Z2N.id, Hc).
  revert E Hc. generalize (Z.to_N ci). intros i -> Hc.
  rewrite eqb_of_N_0. destruct ((rot =? 0) || (i =? 0)%N); [reflexivity|].
  assert (Ha : 0 <= Z.of_N (i mod 64) < 64) by (pose proof (N.mod_lt i 64); lia).
  replace (go_rem (I 64) (Z.of_N i) 64) with (Z.of_N (i mod 64)).
  2:{ rewrite go_rem_I64, Z.rem_mod_nonneg, N2Z.inj_mod; try reflexivity; lia. }
  rewrite (go_cast_I32_I64 rot Hr).
  destruct (Z.leb_spec rot 15) as [H15|H15].
  - rewrite go_mul_count, go_neg_I64 by (try apply count_in_I64; assumption).
    apply go_rotl64_of_N, Hi.
  - (* rot / 16 is again an int32 *)
    assert (Hq : - 2 ^ 31 <= Z.quot rot 16 < 2 ^ 31) by (destruct (quot_bounds rot 16) as [Q _]; lia).
    unfold go_quo. rewrite (in_I32 _ Hq), (go_cast_I32_I64 _ Hq), (go_mul_count _ _ Ha Hq).
    rewrite Z.quot_div_nonneg by lia. apply go_rotl64_of_N, Hi.
Qed.

Example ex_xl_low_entropy :
  xl_protocol_lowBits 12 = Some 4095 /\ xl_protocol_lowBits 64 = Some (2 ^ 64 - 1) /\ xl_protocol_lowBits 0 = Some 0 /\
  xl_protocol_isValidLowEntropyRotation 48 = true /\ xl_protocol_isValidLowEntropyRotation 50 = false /\
  xl_protocol_rotateLowEntropyMask 1 16 3 = 8 /\ xl_protocol_rotateLowEntropyMask 1 1 3 = 2 ^ 61.
Proof. repeat split; reflexivity. Qed.

(* error results are booleans in the translation, true = an error was returned; the parameter struct is a pair *)

Theorem xl_buildLowEntropyParams_eq_mode_params mode :
  xl_protocol_buildLowEntropyParams mode =
  match mode_params mode with Some (c, w) => ((c, w), false) | None => ((0, 0), true) end.
Proof.
  destruct (mode_params mode) as [[c w]|] eqn:E.
  - apply mode_params_table in E. cbn in E.
    destruct E as [[= <- <- <-]|[[= <- <- <-]|[[= <- <- <-]|[[= <- <- <-]|[]]]]]; reflexivity.
  - (* none of the four modes, or the table would give Some *)
    unfold xl_protocol_buildLowEntropyParams.
    destruct (Z.eqb_spec mode 1) as [->|_]; [discriminate E|].
    destruct (Z.eqb_spec mode 2) as [->|_]; [discriminate E|].
    destruct (Z.eqb_spec mode 3) as [->|_]; [discriminate E|].
    destruct (Z.eqb_spec mode 4) as [->|_]; [discriminate E|]. reflexivity.
Qed.

Definition of_res (r : res Z) : Z * bool := match r with Ok v => (v, false) | Err _ => (0, true) end.

(* no wrap for any int n: where 1 is added the count n / c + 1 is at most n *)
Theorem xl_lowEntropyEncodedPayloadLen_eq_enc_len n mode : - 2 ^ 63 <= n < 2 ^ 63 ->
  xl_protocol_lowEntropyEncodedPayloadLen n mode = Some (of_res (enc_len n mode)).
Proof.
  intro Hn.
  unfold xl_protocol_lowEntropyEncodedPayloadLen, enc_len.
  rewrite xl_buildLowEntropyParams_eq_mode_params.
  destruct (mode_params mode) as [[c w]|] eqn:Em; [|reflexivity].
  destruct (mode_params_facts _ _ _ Em) as [Rc _].
  cbn [Bool.eqb negb].
  destruct (Z.leb_spec n 0) as [H0|H0]; [reflexivity|].
  assert (E0 : (c =? 0) = false) by (apply Z.eqb_neq; lia). rewrite E0. cbn [negb].
  rewrite go_quo_I64, go_rem_I64 by lia.
  rewrite Z.quot_div_nonneg, Z.rem_mod_nonneg by lia.
  rewrite if_negb.
  assert (Hq : 0 <= n / c) by (apply Z.div_pos; lia).
  (* n / c <= c * (n / c) <= n, with equality on the right only where nothing is added *)
  pose proof (Z.mul_le_mono_nonneg_r 1 c (n / c) Hq ltac:(lia)) as Hcq.
  assert (Ec : (if n mod c =? 0 then n / c else go_add (I 64) (n / c) 1) = nchunks n c).
  { unfold nchunks. destruct (Z.eqb_spec (n mod c) 0); [lia | apply go_add_I64; lia]. }
  rewrite Ec. assert (0 <= nchunks n c) by (unfold nchunks; destruct (n mod c =? 0); lia).
  unfold C17_lowEntropyChunkLen. change (65535 / 8) with 8191. rewrite Z.gtb_ltb.
  destruct (Z.ltb_spec 8191 (nchunks n c)) as [Hc|Hc]; [reflexivity|].
  rewrite go_mul_I64 by lia.
  unfold go_cast, go_wrap. rewrite wrapU_id by lia. reflexivity.
Qed.

(* math/bits.OnesCount32 by its specification (MiniGo.go_popcount) is the model's popcount *)
Lemma go_popcount_of_N (m : N) : go_popcount (Z.of_N m) = Z.of_N (popcount m).
Proof.
  destruct m as [|p]; [reflexivity|]. cbn [Z.of_N go_popcount popcount].
  induction p as [q IH|q IH|]; cbn [go_popP popP]; rewrite ?IH; lia.
Qed.

Theorem xl_lowEntropyChunkMask_eq_model (init : N) (rot ci : Z) :
  (init < W64)%N -> - 2 ^ 31 <= rot < 2 ^ 31 -> ci < 2 ^ 63 ->
  xl_protocol_lowEntropyChunkMask (Z.of_N init) rot ci =
  match chunk_mask init rot ci with Ok v => (Z.of_N v, false) | Err _ => (0, true) end.
Proof.
  intros Hi Hr Hc. unfold xl_protocol_lowEntropyChunkMask, chunk_mask.
  rewrite xl_isValidLowEntropyRotation_eq_model by exact Hr.
  destruct (valid_rotation rot); cbn [negb]; [|reflexivity].
  destruct (Z.ltb_spec ci 0) as [Hn|Hn]; [reflexivity|].
  rewrite xl_rotateLowEntropyMask_eq_model by (assumption || split; assumption). reflexivity.
Qed.
