(* The current source of pkg/mathext (gen/Translated.v, written by harness/cmd/go2coq on every run) equals the
   hand-written model functions of base/Bits64.v that the C17 theorems are about.

   Shape of every loop proof: one-step simulation ([MiniGo.while_simulates]) between the translated loop on Z
   triples and the model's fuelled loop on N, under the representation [Z.of_N]; the body is never unfolded as a
   whole, [step_norm] normalises it with the bridge lemmas of proofs/MiniGoProofs.v, so an edit of the
   Go source that leaves each iteration's effect in place (up to those rewrites) keeps the proof. *)
From Coq Require Import ZArith NArith Bool Lia.
From M Require Import base.MiniGo base.Bits64 gen.Translated proofs.MiniGoProofs proofs.Bits64Proofs proofs.Bits64LoopProofs.
Open Scope Z_scope.

Theorem xl_Min_int_eq_model a b : xl_mathext_Min_int a b = Z.min a b.
Proof. unfold xl_mathext_Min_int. destruct (Z.leb_spec a b); lia. Qed.

Theorem xl_Max_int_eq_model a b : xl_mathext_Max_int a b = Z.max a b.
Proof. unfold xl_mathext_Max_int. destruct (Z.leb_spec b a); lia. Qed.

(* -a wraps only at the most negative int *)
Theorem xl_Abs_int_eq_model a : - 2 ^ 63 < a < 2 ^ 63 -> xl_mathext_Abs_int a = Z.abs a.
Proof.
  intro H. unfold xl_mathext_Abs_int. destruct (Z.leb_spec 0 a); [lia|].
  rewrite go_neg_I64 by lia. lia.
Qed.

Theorem xl_Abs_int_min : xl_mathext_Abs_int (- 2 ^ 63) = - 2 ^ 63.
Proof. reflexivity. Qed.

Theorem xl_RepeatUint32_eq_model (v : N) : (v < 2 ^ 32)%N ->
  xl_mathext_RepeatUint32 (Z.of_N v) = Z.of_N (repeat32 v).
Proof.
  intro Hv. unfold xl_mathext_RepeatUint32.
  assert (Hv64 : (v < 2 ^ 64)%N) by (eapply N.lt_trans; [exact Hv | reflexivity]).
  rewrite go_cast_U64_of_N by exact Hv64.
  change 32 with (Z.of_N 32). rewrite go_shl_U64_of_N by reflexivity.
  rewrite N.mod_small.
  - rewrite <- of_N_lor. f_equal. unfold repeat32. apply lor_shifted_N. exact Hv.
  - change (2 ^ 64)%N with (2 ^ 32 * 2 ^ 32)%N. apply N.mul_lt_mono_pos_r; [reflexivity | exact Hv].
Qed.

Definition pc (m : N) : nat := N.to_nat (popcount m).

Lemma pc_clear_lowest m : m <> 0%N -> (pc (N.land m (m - 1)) < pc m)%nat.
Proof.
  intro H. destruct m as [|p]; [contradiction|]. unfold pc.
  rewrite clearlow_spec. pose proof (popcount_clearlow p). cbn [popcount]. lia.
Qed.

Lemma pc_le_64 m : (m < W64)%N -> (pc m <= 64)%nat.
Proof. intro H. unfold pc. pose proof (popcount_le_64 m H). lia. Qed.

Lemma land_pred_lt m : (m < W64)%N -> (N.land m (m - 1) < W64)%N.
Proof. apply land_lt_W64. Qed.

(* the state of both loops: (mask, moving bit, result) of the model represents (mask, result, moving bit) of the
   translated loop, componentwise through Z.of_N; the invariant is that the mask is a 64-bit word *)
Definition rep3 (a : N * N * N) (s : Z * Z * Z) : Prop :=
  let '(m, bit, r) := a in s = (Z.of_N m, Z.of_N r, Z.of_N bit) /\ (m < W64)%N.
Definition out3 (s : Z * Z * Z) : Z := let '(_, r, _) := s in r.
Definition meas3 (a : N * N * N) : nat := let '(m, _, _) := a in pc m.

Lemma of_N_ldiff a b : Z.of_N (N.ldiff a b) = Z.ldiff (Z.of_N a) (Z.of_N b).
Proof. destruct a, b; reflexivity. Qed.
Lemma go_andnot_U64_of_N a b : (a < 2 ^ 64)%N -> go_andnot (U 64) (Z.of_N a) (Z.of_N b) = Z.of_N (N.ldiff a b).
Proof.
  intro Ha. unfold go_andnot, go_wrap. rewrite <- Z.ldiff_land, <- of_N_ldiff. apply wrapU64_small.
  apply (sub_mask_lt_W64 _ a); [|exact Ha].
  apply N.bits_inj; intro i. rewrite N.land_spec, N.ldiff_spec.
  destruct (N.testbit a i), (N.testbit b i); reflexivity.
Qed.

(* normal form of one iteration: everything under Z.of_N, the lowest set bit as [Npos (lowbitP p)], the mask without
   it as [clearlowP p], whether the source writes [mask &= mask - 1] (it does), [^= maskBit], [-= maskBit] or [&^= maskBit]
   (the build compiles the first spelling only) *)
Local Ltac step_norm p :=
  cbv beta iota zeta;
  repeat first
    [ rewrite go_neg_U64_of_N | rewrite go_shl_U64_1 | rewrite eqb_of_N_0 | rewrite if_negb | rewrite if_of_N
    | rewrite <- of_N_land | rewrite <- of_N_lor | rewrite <- of_N_lxor
    | rewrite go_sub_U64_pred by assumption
    | rewrite go_andnot_U64_of_N by assumption
    | progress change ((2 ^ 64 - Npos p mod 2 ^ 64) mod 2 ^ 64)%N with (neg64 (Npos p))
    | rewrite maskbit_eq by assumption
    | rewrite go_sub_U64_of_N by (first [assumption | apply lowbit_le]) ];
  rewrite ?clearlow_spec, ?lxor_lowbit, ?sub_lowbit, ?ldiff_lowbit.

(* The two portable loops visit the one-bits of the mask from the lowest up, doubling a moving bit, and differ only in
   how an iteration updates the result: [upd mask bit result].  A model loop and a translated loop (test [c], body [b])
   that make this iteration agree, for every 64-bit mask, within 65 units of fuel. *)
Lemma lowbit_loop_simulates (upd : N -> N -> N -> N) (model : nat -> N -> N -> N -> N)
      (c : Z * Z * Z -> bool) (b : Z * Z * Z -> Z * Z * Z) :
  (forall m bit r, model O m bit r = r) ->
  (forall f m bit r, model (S f) m bit r =
     if (m =? 0)%N then r else model f (N.land m (m - 1)) ((bit * 2) mod W64)%N (upd m bit r)) ->
  (forall m r bit, c (m, r, bit) = negb (m =? 0)) ->
  (forall m bit r, m <> 0%N -> (m < W64)%N ->
     b (Z.of_N m, Z.of_N r, Z.of_N bit) =
     (Z.of_N (N.land m (m - 1)), Z.of_N (upd m bit r), Z.of_N ((bit * 2) mod W64))) ->
  forall m, (m < W64)%N ->
  match while 65 c b (Z.of_N m, 0, 1) with Some (_, r, _) => Some r | None => None end =
  Some (Z.of_N (model 64%nat m 1%N 0%N)).
Proof.
  intros M0 MS Hc Hb m Hm.
  destruct (while_simulates rep3 meas3 (fun f '(m, bit, r) => Z.of_N (model f m bit r)) out3 c b)
    with (f := 64%nat) (a := (m, 1%N, 0%N)) (s := (Z.of_N m, 0, 1)) as (s & Hw & Hs & _).
  - (* stop *)
    intros f [[m0 bit] r0] s [-> _] E. rewrite Hc, eqb_of_N_0 in E. apply negb_false_iff in E.
    destruct f; [rewrite M0 | rewrite MS, E]; reflexivity.
  - (* step *)
    intros f [[m0 bit] r0] s [-> Hm0] E. rewrite Hc, eqb_of_N_0 in E. apply negb_true_iff in E.
    apply N.eqb_neq in E.
    exists (N.land m0 (m0 - 1), (bit * 2) mod W64, upd m0 bit r0)%N. split; [|split].
    + split; [apply Hb; assumption | apply land_pred_lt, Hm0].
    + apply pc_clear_lowest, E.
    + rewrite MS, (proj2 (N.eqb_neq _ _) E). reflexivity.
  - (* entry *)
    split; [reflexivity | exact Hm].
  - (* fuel *)
    apply pc_le_64, Hm.
  - rewrite Hw, Hs. destruct s as [[? r] ?]. reflexivity.
Qed.

Theorem xl_pdepGeneric_eq_model (x m : N) : (m < W64)%N ->
  xl_mathext_pdepGeneric (Z.of_N x) (Z.of_N m) = Some (Z.of_N (pdep_go x m)).
Proof.
  intro Hm. unfold xl_mathext_pdepGeneric, pdep_go. cbv zeta.
  apply (lowbit_loop_simulates
           (fun m bit r => if (N.land x bit =? 0)%N then r else N.lor r (N.land m (neg64 m)))
           (fun f => pdep_loop f x)).
  - (* model without fuel *) reflexivity.
  - (* model iteration: upd is pdep_loop's update of result *) reflexivity.
  - (* loop test *) reflexivity.
  - (* loop body: step_norm brings it to the right-hand side, with clearlowP p for the cleared mask *)
    intros [|p] bit r Hnz Hp; [contradiction|]. step_norm p. reflexivity.
  - exact Hm.
Qed.

Theorem xl_pextGeneric_eq_model (x m : N) : (m < W64)%N ->
  xl_mathext_pextGeneric (Z.of_N x) (Z.of_N m) = Some (Z.of_N (pext_go x m)).
Proof.
  intro Hm. unfold xl_mathext_pextGeneric, pext_go. cbv zeta.
  apply (lowbit_loop_simulates
           (fun m bit r => if (N.land x (N.land m (neg64 m)) =? 0)%N then r else N.lor r bit)
           (fun f => pext_loop f x)).
  - (* model without fuel *) reflexivity.
  - (* model iteration *) reflexivity.
  - (* loop test *) reflexivity.
  - (* loop body *) intros [|p] bit r Hnz Hp; [contradiction|]. step_norm p. reflexivity.
  - exact Hm.
Qed.

Example ex_xl_pdep : xl_mathext_pdepGeneric 5 0xF0F0 = Some 0x50.
Proof. vm_compute. reflexivity. Qed.
Example ex_xl_pext : xl_mathext_pextGeneric 0xABCD 0xF0F0 = Some 0xAC.
Proof. vm_compute. reflexivity. Qed.
