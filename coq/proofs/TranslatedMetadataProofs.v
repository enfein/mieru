(* protocolType.Equals and the metadata codecs of pkg/protocol/metadata.go
   (sessionStruct.Marshal, sessionStruct.Unmarshal, dataAckStruct.Marshal), of the current source (gen/Translated.v),
   equal the model functions the C09 theorems are about:
   Wire.marshal_session / unmarshal_session / marshal_data (the documented layouts), with the timestamp test of
   proofs/TranslatedTimeProofs.v.  The clock read by Marshal / Unmarshal (time.Now().Unix()) is the parameter [now]. *)
From Coq Require Import ZArith NArith List Bool Lia ZifyN ZifyBool.
From M Require Import gen.Consts base.MiniGo gen.Translated model.Wire model.KeyTime proofs.MiniGoProofs proofs.WireProofs proofs.TranslatedWireProofs proofs.TranslatedTimeProofs.
Import ListNotations.
Local Open Scope Z_scope.

Theorem xl_Equals_eq_model (p other : N) : (p < 256)%N ->
  xl_protocol_protocolType_Equals (Z.of_N p) (Z.of_N other) = (p =? other)%N.
Proof.
  intro Hp. unfold xl_protocol_protocolType_Equals, go_cast, go_wrap, wrapU.
  rewrite Z.mod_small by lia. apply eqb_of_N.
Qed.

Definition zs (l : list N) : list Z := map Z.of_N l.

(* wider than Wire.session_valid: Marshal checks neither the type nor the payload limit *)
Definition session_in_range (m : session_meta) : Prop :=
  (s_proto m < 256 /\ s_ts m < 2 ^ 32 /\ s_sid m < 2 ^ 32 /\ s_seq m < 2 ^ 32 /\ s_status m < 256 /\
   s_plen m < 2 ^ 16 /\ s_slen m < 256)%N.

Definition with_ts (m : session_meta) (ts : N) : session_meta :=
  {| s_proto := s_proto m; s_ts := ts; s_sid := s_sid m; s_seq := s_seq m; s_status := s_status m;
     s_plen := s_plen m; s_slen := s_slen m |}.

(* The stores of a Marshal method act on make([]byte, 32): a straight-line program on a concrete buffer, which this
   runs.  What is left is the list of the 32 stored values. *)
Ltac run_stores :=
  cbv [go_make go_put_be32 go_put_be16 go_upd upd_nat repeat Z.to_nat Pos.to_nat Pos.iter_op Init.Nat.add
       Z.add Pos.add Pos.succ Pos.add_carry].

(* Only the single-byte fields need their bound: the wider ones are cut to their width by PutUint16/32 as by be16/be32. *)
Theorem xl_sessionStruct_Marshal_eq_model (m : session_meta) (ts0 now : Z) :
  (s_proto m < 256)%N -> (s_status m < 256)%N -> (s_slen m < 256)%N -> - 2 ^ 63 <= now < 2 ^ 63 ->
  xl_protocol_sessionStruct_Marshal (Z.of_N (s_proto m)) ts0 (Z.of_N (s_sid m)) (Z.of_N (s_seq m))
    (Z.of_N (s_status m)) (Z.of_N (s_plen m)) (Z.of_N (s_slen m)) now
  = (zs (marshal_session (with_ts m (Z.to_N (stamp now)))), stamp now).
Proof.
  intros Hp Hst Hsl Hnow.
  unfold xl_protocol_sessionStruct_Marshal. rewrite xl_stamp by exact Hnow.
  pose proof (stamp_range now) as Hs. f_equal.
  (* the model's side first, while the other side is still the unevaluated chain of stores *)
  unfold zs, marshal_session, with_ts, zeros. cbn [s_proto s_ts s_sid s_seq s_status s_plen s_slen].
  rewrite !map_app, !of_N_be32, of_N_be16. cbn [map app repeat].
  rewrite !of_N_b8 by assumption. rewrite Z2N.id by apply Hs. run_stores. reflexivity.
Qed.

Definition data_in_range (m : data_meta) : Prop :=
  (d_proto m < 256 /\ d_mode m < 256 /\ d_sid m < 2 ^ 32 /\ d_seq m < 2 ^ 32 /\ d_unack m < 2 ^ 32 /\ d_win m < 2 ^ 16 /\
   d_frag m < 256 /\ d_prefix m < 256 /\ d_plen m < 2 ^ 16 /\ d_slen m < 256 /\
   d_mask m < 2 ^ 32 /\ d_elen m < 2 ^ 16 /\ d_rot m < 256)%N.

Definition with_dts (m : data_meta) (ts : N) : data_meta :=
  {| d_proto := d_proto m; d_mode := d_mode m; d_ts := ts; d_sid := d_sid m; d_seq := d_seq m; d_unack := d_unack m;
     d_win := d_win m; d_frag := d_frag m; d_prefix := d_prefix m; d_plen := d_plen m; d_slen := d_slen m;
     d_mask := d_mask m; d_elen := d_elen m; d_rot := d_rot m |}.

Lemma xl_dataAckStruct_Marshal_eq_model (m : data_meta) (ts0 now : Z) :
  (d_proto m < 256)%N -> (d_mode m < 256)%N -> (d_frag m < 256)%N -> (d_prefix m < 256)%N -> (d_slen m < 256)%N ->
  (d_rot m < 256)%N -> - 2 ^ 63 <= now < 2 ^ 63 ->
  xl_protocol_dataAckStruct_Marshal (Z.of_N (d_proto m)) ts0 (Z.of_N (d_mode m)) (Z.of_N (d_sid m)) (Z.of_N (d_seq m))
    (Z.of_N (d_unack m)) (Z.of_N (d_win m)) (Z.of_N (d_frag m)) (Z.of_N (d_prefix m)) (Z.of_N (d_plen m))
    (Z.of_N (d_slen m)) (Z.of_N (d_mask m)) (Z.of_N (d_elen m)) (Z.of_N (d_rot m)) now
  = (zs (marshal_data (with_dts m (Z.to_N (stamp now)))), stamp now).
Proof.
  intros Hp Hmo Hfr Hpre Hsl Hro Hnow.
  unfold xl_protocol_dataAckStruct_Marshal. rewrite xl_stamp by exact Hnow.
  pose proof (stamp_range now) as Hs.
  unfold xl_protocol_dataAckStruct_Protocol, go_cast, go_wrap, wrapU. rewrite Z.mod_small by lia.
  rewrite xl_isLowEntropyProtocol_eq_wire. f_equal.
  unfold zs, marshal_data, with_dts, zeros.
  cbn [d_proto d_mode d_ts d_sid d_seq d_unack d_win d_frag d_prefix d_plen d_slen d_mask d_elen d_rot].
  rewrite (b8_small _ Hp).
  (* as for the session, for either kind of type *)
  destruct (is_low_entropy (d_proto m)).
  all: rewrite !map_app, !of_N_be32, !of_N_be16; cbn [map app repeat].
  all: rewrite !of_N_b8 by assumption; rewrite Z2N.id by apply Hs.
  all: run_stores; reflexivity.
Qed.

(* the form in which Unmarshal calls it: a type constant against a byte of the buffer *)
Lemma xl_Equals_const (c : Z) (n : N) : 0 <= c < 256 ->
  xl_protocol_protocolType_Equals c (Z.of_N n) = (n =? Z.to_N c)%N.
Proof.
  intro Hc. rewrite <- (Z2N.id c) at 1 by lia. rewrite xl_Equals_eq_model by lia. apply N.eqb_sym.
Qed.

Theorem xl_sessionStruct_Unmarshal_eq_model (b : list N) (p0 t0 i0 q0 c0 l0 x0 now : Z) :
  - 2 ^ 63 <= now < 2 ^ 63 ->
  xl_protocol_sessionStruct_Unmarshal (zs b) p0 t0 i0 q0 c0 l0 x0 now =
  Some (match unmarshal_session b with
        | Some m => if within_range32 (stamp now) (Z.of_N (s_ts m)) 1
                    then (false, Z.of_N (s_proto m), Z.of_N (s_ts m), Z.of_N (s_sid m), Z.of_N (s_seq m),
                          Z.of_N (s_status m), Z.of_N (s_plen m), Z.of_N (s_slen m))
                    else (true, p0, t0, i0, q0, c0, l0, x0)
        | None => (true, p0, t0, i0, q0, c0, l0, x0)
        end).
Proof.
  intros Hnow. unfold xl_protocol_sessionStruct_Unmarshal, unmarshal_session, zs.
  (* the calls of other translated functions first: once the bounds tests are evaluated, Qed is slow to see through them *)
  rewrite xl_WithinRange_uint32_eq_model, xl_stamp by exact Hnow.
  rewrite go_len_of_N. change MetadataLength with (N.of_nat 32).
  destruct (Nat.eq_dec (length b) 32) as [Hlen|Hlen].
  2:{ replace (Z.of_nat (length b) =? 32) with false by lia.
      replace (N.of_nat (length b) =? N.of_nat 32)%N with false by lia. reflexivity. }
  (* 32 bytes: every bounds test of the translation is a closed comparison *)
  rewrite Hlen, N.eqb_refl. change (Z.of_nat 32) with 32.
  cbn [Z.eqb Pos.eqb Z.leb Z.ltb Z.add Z.compare Pos.compare Pos.compare_cont Pos.add Pos.succ negb andb].
  rewrite !orb_true_r. cbn [andb].
  rewrite !go_nth_bytes, !go_be32_bytes, go_be16_bytes by lia.
  cbv [Z.to_nat Pos.to_nat Pos.iter_op Init.Nat.add].
  rewrite !xl_Equals_const by lia. rewrite <- !negb_orb.
  change (_ || _ || _ || _)%N with (is_session (byte_at 0 b)).
  change 1024 with (Z.of_N MaxSessionOpenPayload). rewrite ltb_of_N.
  (* Go tests the stamp before the payload length, the model after: the same three tests *)
  destruct (is_session _); [|reflexivity]. cbn [negb].
  destruct (_ <? _)%N, (within_range32 _ _ _); reflexivity.
Qed.

Theorem xl_session_marshal_unmarshal (m : session_meta) (ts0 ns nr p0 t0 i0 q0 c0 l0 x0 : Z) :
  session_valid m -> - 2 ^ 63 <= ns < 2 ^ 63 -> - 2 ^ 63 <= nr < 2 ^ 63 ->
  let '(b, ts) := xl_protocol_sessionStruct_Marshal (Z.of_N (s_proto m)) ts0 (Z.of_N (s_sid m)) (Z.of_N (s_seq m))
                    (Z.of_N (s_status m)) (Z.of_N (s_plen m)) (Z.of_N (s_slen m)) ns in
  ts = stamp ns /\
  xl_protocol_sessionStruct_Unmarshal b p0 t0 i0 q0 c0 l0 x0 nr =
  Some (if within_range32 (stamp nr) (stamp ns) 1
        then (false, Z.of_N (s_proto m), stamp ns, Z.of_N (s_sid m), Z.of_N (s_seq m), Z.of_N (s_status m),
              Z.of_N (s_plen m), Z.of_N (s_slen m))
        else (true, p0, t0, i0, q0, c0, l0, x0)).
Proof.
  intros Hv Hns Hnr. pose proof Hv as (Hb & _ & _ & _ & Hst & _ & Hsl). apply is_session_byte in Hb.
  rewrite (xl_sessionStruct_Marshal_eq_model m ts0 ns Hb Hst Hsl Hns). split; [reflexivity|].
  rewrite xl_sessionStruct_Unmarshal_eq_model by exact Hnr.
  pose proof (stamp_range ns) as Hs.
  assert (Hv' : session_valid (with_ts m (Z.to_N (stamp ns)))).
  { destruct Hv as (Hp & Hts & Hrest). unfold session_valid, with_ts; cbn [s_proto s_ts s_sid s_seq s_status s_plen s_slen].
    split; [exact Hp|]. split; [lia | exact Hrest]. }
  rewrite (session_roundtrip _ Hv'). unfold with_ts; cbn [s_proto s_ts s_sid s_seq s_status s_plen s_slen].
  rewrite Z2N.id by lia. reflexivity.
Qed.

Example ex_xl_session_roundtrip :
  let '(b, ts) := xl_protocol_sessionStruct_Marshal 2 0 305419896 0 0 1024 7 1700000000 in
  xl_protocol_sessionStruct_Unmarshal b 0 0 0 0 0 0 0 1700000059 = Some (false, 2, ts, 305419896, 0, 0, 1024, 7) /\
  xl_protocol_sessionStruct_Unmarshal b 9 9 9 9 9 9 9 1700000180 = Some (true, 9, 9, 9, 9, 9, 9, 9) /\
  ts = 28333333.
Proof. vm_compute. repeat split. Qed.
