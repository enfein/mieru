(* pkg/protocol's size arithmetic as the source says it at every run (gen/Translated.v is written by
   harness/cmd/go2coq each time) against the functions of model/Sizes.v that the C14 theorems are about.

   Go's [int] is 64 bits wide on every platform the project builds for by default (amd64 / arm64); the translated
   operations wrap at 2^63 where Sizes.v computes in unbounded Z, so the equalities carry a range hypothesis
   ([int_small], or that one subtraction does not wrap).  Harmless: MTUs are 1280..1500, sizes below 2^16. *)
From Coq Require Import ZArith Lia List.
From M Require Import gen.Consts base.MiniGo gen.Translated model.Sizes.
From M Require Import proofs.MiniGoProofs proofs.TranslatedMathextProofs proofs.SizesProofs.
Open Scope Z_scope.

Definition int_small (z : Z) : Prop := - 2 ^ 61 < z < 2 ^ 61.

Lemma pow61 : 2 ^ 61 = 2305843009213693952. Proof. reflexivity. Qed.
Lemma pow63 : 2 ^ 63 = 9223372036854775808. Proof. reflexivity. Qed.

(* lia does not evaluate Z.pow *)
Ltac ranges := unfold int_small in *; rewrite ?pow61, ?pow63 in *.

Lemma u16_int_small z : 0 <= z <= C14_MaxUint16 -> int_small z.
Proof. unfold C14_MaxUint16. ranges. lia. Qed.

(* segment.go maxFragmentSizeInternal *)
Theorem xl_maxFragmentSizeInternal_eq_model mtu t : - 2 ^ 63 <= mtu - C14_packetOverhead < 2 ^ 63 ->
  xl_protocol_maxFragmentSizeInternal mtu t = max_fragment_internal mtu t.
Proof.
  intro Hm. unfold xl_protocol_maxFragmentSizeInternal, max_fragment_internal, is_stream.
  rewrite xl_Max_int_eq_model, go_sub_I64 by exact Hm.
  unfold C14_TransportStream, C14_maxPDU, C14_packetOverhead. reflexivity.
Qed.

(* padding.go maxPaddingSize *)
Theorem xl_maxPaddingSize_eq_model mtu t frag ex : int_small mtu -> int_small frag -> int_small ex ->
  xl_protocol_maxPaddingSize mtu t frag ex = max_padding mtu t frag ex.
Proof.
  intros Hm Hf He. unfold xl_protocol_maxPaddingSize, max_padding, is_stream.
  (* innermost subtraction first: each side condition speaks of the differences already cleared of go_sub *)
  rewrite xl_Min_int_eq_model, go_cast_I64, (go_sub_I64 mtu frag), (go_sub_I64 (mtu - frag)), go_sub_I64 by (ranges; lia).
  unfold C14_TransportStream, C14_StreamPaddingCap, C14_PacketPaddingCap, C14_packetOverhead. reflexivity.
Qed.

Lemma xl_maxPaddingSize_in_range mtu t frag ex :
  mtu_ok mtu -> 0 <= frag <= C14_MaxUint16 -> 0 <= ex <= C14_MaxUint8 ->
  xl_protocol_maxPaddingSize mtu t frag ex = max_padding mtu t frag ex.
Proof.
  unfold mtu_ok. intros Hm Hf He.
  (* all three are between 0 and 65535: mtu <= 1500, ex <= 255 *)
  apply xl_maxPaddingSize_eq_model; apply u16_int_small.
  - consts. lia.
  - exact Hf.
  - consts. lia.
Qed.

(* the ranges are needed: at the edge of int the source wraps and the unbounded model does not *)
Example xl_maxFragmentSizeInternal_wraps :
  xl_protocol_maxFragmentSizeInternal (- 2 ^ 63) C14_TransportPacket = 2 ^ 63 - 88 /\
  max_fragment_internal (- 2 ^ 63) C14_TransportPacket = 0.
Proof. split; reflexivity. Qed.

Example ex_xl_sizes :
  xl_protocol_maxFragmentSizeInternal 1400 C14_TransportPacket = 1312 /\
  xl_protocol_maxPaddingSize 1400 C14_TransportPacket 1000 100 = 212 /\
  xl_protocol_maxPaddingSize 1400 C14_TransportPacket 1300 20 = 0.
Proof. repeat split; reflexivity. Qed.

(* Results of type error are booleans in the translation (true = an error was returned); a struct of integers is
   the tuple of its fields.  The model's [option] is [None] exactly where the source returns an error. *)
Definition of_opt (o : option Z) : Z * bool := match o with Some v => (v, false) | None => (0, true) end.

(* low_entropy.go buildLowEntropyParams against Sizes.src_bytes *)
Theorem xl_buildLowEntropyParams_eq_model mode :
  match src_bytes mode with
  | Some sb => exists w, xl_protocol_buildLowEntropyParams mode = ((sb, w), false)
  | None => xl_protocol_buildLowEntropyParams mode = ((0, 0), true)
  end.
Proof.
  unfold src_bytes, xl_protocol_buildLowEntropyParams, C14_Mode32, C14_Mode40, C14_Mode48, C14_Mode56,
    C14_Src32, C14_Src40, C14_Src48, C14_Src56.
  destruct (mode =? 1); [eexists; reflexivity|].
  destruct (mode =? 2); [eexists; reflexivity|].
  destruct (mode =? 3); [eexists; reflexivity|].
  destruct (mode =? 4); [eexists; reflexivity|]. reflexivity.
Qed.

Lemma u16_cast x : go_cast (U 16) x = u16 x.
Proof. reflexivity. Qed.

(* low_entropy.go lowEntropyEncodedPayloadLen: never panics (the divisor is one of 4..7), errs where the model has None *)
Theorem xl_lowEntropyEncodedPayloadLen_eq_model n mode : - 2 ^ 63 <= n < 2 ^ 63 ->
  xl_protocol_lowEntropyEncodedPayloadLen n mode = Some (of_opt (le_encoded_len n mode)).
Proof.
  intro Hn. unfold xl_protocol_lowEntropyEncodedPayloadLen, le_encoded_len.
  pose proof (xl_buildLowEntropyParams_eq_model mode) as B.
  destruct (src_bytes mode) as [sb|] eqn:Es; [|rewrite B; reflexivity].
  destruct B as [w ->]. pose proof (src_bytes_range _ _ Es) as Rs.
  cbn [Bool.eqb negb].
  destruct (Z.leb_spec n 0) as [H0|H0]; [reflexivity|].
  assert (E0 : (sb =? 0) = false) by (apply Z.eqb_neq; lia). rewrite E0. cbn [negb].
  rewrite go_quo_I64, go_rem_I64, if_negb by lia.
  (* 0 <= 4 * q <= n, so q + 1 does not wrap; the count is multiplied only when it is at most 8191 *)
  destruct (quot_bounds n sb ltac:(lia)) as [Q _]. specialize (Q ltac:(lia)).
  pose proof (Z.mul_quot_le n sb ltac:(lia) ltac:(lia)) as Q4.
  set (q := Z.quot n sb) in *. clearbody q.
  pose proof (Z.mul_le_mono_nonneg_r 4 sb q ltac:(lia) ltac:(lia)).
  replace (if Z.rem n sb =? 0 then q else go_add (I 64) q 1) with (q + (if Z.rem n sb =? 0 then 0 else 1))
    by (destruct (Z.rem n sb =? 0); [lia|symmetry; apply go_add_I64; ranges; lia]).
  set (c := q + _). assert (0 <= c) by (subst c; destruct (Z.rem n sb =? 0); lia). clearbody c.
  rewrite max_chunks_val, Z.gtb_ltb. unfold C14_lowEntropyChunkLen.
  destruct (Z.ltb_spec 8191 c) as [Hc|Hc]; [reflexivity|].
  rewrite go_mul_I64 by (ranges; lia). reflexivity.
Qed.

(* segment.go maxFragmentSize; after unfolding, 88 is packetOverhead and 8 lowEntropyChunkLen *)
Theorem xl_maxFragmentSize_eq_model mtu t mode : - 2 ^ 63 <= mtu - C14_packetOverhead < 2 ^ 63 ->
  xl_protocol_maxFragmentSize mtu t mode = of_opt (max_fragment mtu t mode).
Proof.
  intro Hm. unfold xl_protocol_maxFragmentSize, max_fragment.
  rewrite !xl_maxFragmentSizeInternal_eq_model by exact Hm. unfold C14_ModeOff.
  destruct (mode =? 0); [reflexivity|].
  pose proof (xl_buildLowEntropyParams_eq_model mode) as B.
  destruct (src_bytes mode) as [sb|] eqn:Es; [|rewrite B; reflexivity].
  destruct B as [w ->]. pose proof (src_bytes_range _ _ Es) as Rs.
  cbn [Bool.eqb negb].
  unfold is_stream, is_packet, C14_TransportStream, C14_TransportPacket.
  destruct (t =? 1).
  - rewrite xl_Min_int_eq_model, max_chunks_val, go_mul_I64 by (ranges; lia). reflexivity.
  - destruct (t =? 2); [|reflexivity].
    unfold C14_packetOverhead, C14_lowEntropyChunkLen in *.
    rewrite go_sub_I64, go_quo_I64 by lia.
    destruct (quot_bounds (mtu - 88) 8 ltac:(lia)) as [_ Q2].
    pose proof (Z.mul_quot_le (mtu - 88) 8) as Q8.
    set (q := Z.quot (mtu - 88) 8) in *. clearbody q.
    destruct (Z.leb_spec q 0) as [Hc|Hc]; [reflexivity|].
    (* 0 < q, so mtu - 88 is not negative and 8 * q <= mtu - 88; with sb <= 7 the product q * sb stays below it *)
    assert (H0 : 0 <= mtu - 88) by lia. specialize (Q8 H0 ltac:(lia)).
    pose proof (Z.mul_le_mono_nonneg_l sb 8 q ltac:(lia) ltac:(lia)).
    pose proof (Z.mul_nonneg_nonneg q sb ltac:(lia) ltac:(lia)).
    rewrite go_mul_I64 by lia. reflexivity.
Qed.

(* None None: no traffic pattern *)
Lemma xl_draws_ok mtu t s p1 p2 :
  mtu_ok mtu -> 0 <= s_plen s <= C14_MaxUint16 ->
  0 <= p1 <= (if is_session (s_kind s) then 0 else xl_protocol_maxPaddingSize mtu t (s_plen s) 0) ->
  0 <= p2 <= xl_protocol_maxPaddingSize mtu t (s_plen s) (if is_session (s_kind s) then 0 else p1) ->
  draws_ok mtu t None None s p1 p2.
Proof.
  intros Hmtu Hpl H1 H2.
  rewrite xl_maxPaddingSize_in_range in H1 by (auto; consts; lia).
  pose proof (max_padding_range mtu t (s_plen s) 0).
  rewrite xl_maxPaddingSize_in_range in H2 by (auto; destruct (is_session (s_kind s)); consts; lia).
  split; assumption.
Qed.

Example ex_xl_fragment_sizes :
  xl_protocol_maxFragmentSize 1400 C14_TransportPacket C14_Mode32 = (656, false) /\
  xl_protocol_maxFragmentSize 90 C14_TransportPacket C14_Mode32 = (0, true) /\
  xl_protocol_maxFragmentSize 1400 C14_TransportPacket 9 = (0, true) /\
  xl_protocol_lowEntropyEncodedPayloadLen 32764 C14_Mode32 = Some (65528, false) /\
  xl_protocol_lowEntropyEncodedPayloadLen 32768 C14_Mode32 = Some (0, true).
Proof. repeat split; reflexivity. Qed.
