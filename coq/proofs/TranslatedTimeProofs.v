(* pkg/mathext Mid / WithinRange at uint32 of the current source (gen/Translated.v) equal KeyTime.mid3 /
   within_range32, the timestamp test the C08 theorems are about; and the stamp expression
   uint32(time.Now().Unix() / 60) of the metadata Marshal methods is KeyTime.minute.  Kept apart from
   proofs/TranslatedMetadataProofs.v so that a change of the metadata codecs does not touch the C08 obligations. *)
From Coq Require Import ZArith Bool Lia ZifyBool.
From M Require Import base.MiniGo gen.Translated model.KeyTime proofs.MiniGoProofs.
Local Open Scope Z_scope.

Theorem xl_Mid_uint32_eq_model a b c : xl_mathext_Mid_uint32 a b c = mid3 a b c.
Proof.
  unfold xl_mathext_Mid_uint32, mid3. cbv -[Z.ltb].
  (* the slice of the source and the three variables of the model hold the same values after each swap, so both
     sides make the same three comparisons; the third can repeat the first *)
  destruct (Z.ltb_spec b a); cbv -[Z.ltb].
  - destruct (Z.ltb_spec c b); cbv -[Z.ltb].
    + destruct (Z.ltb_spec b a); [reflexivity | lia].
    + destruct (Z.ltb_spec c a); reflexivity.
  - destruct (Z.ltb_spec c a); cbv -[Z.ltb].
    + destruct (Z.ltb_spec a b); reflexivity.
    + destruct (Z.ltb_spec c b); reflexivity.
Qed.

Theorem xl_WithinRange_uint32_eq_model v target margin :
  xl_mathext_WithinRange_uint32 v target margin = within_range32 v target margin.
Proof. unfold xl_mathext_WithinRange_uint32, within_range32. rewrite xl_Mid_uint32_eq_model. reflexivity. Qed.

(* uint32(time.Now().Unix() / 60) for a clock of [now] seconds *)
Definition stamp (now : Z) : Z := u32 (Z.quot now 60).

Lemma stamp_minute t : stamp (t / NS) = minute t.
Proof. reflexivity. Qed.

Lemma xl_stamp now : - 2 ^ 63 <= now < 2 ^ 63 -> go_cast (U 32) (go_quo (I 64) now 60) = stamp now.
Proof. intro H. rewrite go_quo_I64 by lia. reflexivity. Qed.

Lemma stamp_range now : 0 <= stamp now < 2 ^ 32.
Proof. unfold stamp, u32, U32. apply Z.mod_pos_bound. lia. Qed.

