(* The protocol type predicates of pkg/protocol/metadata.go, of the current source (gen/Translated.v), equal the
   predicates of model/Wire.v (C09; protocolType is a uint8, carried as N in the model and as Z in the translation).
   Then what the translation's reads and stores on a []byte (encoding/binary.BigEndian at b[k:]) are in the model's
   terms (slice, byte_at, be_val, be16, be32), for any byte string and offset. *)
From Coq Require Import ZArith NArith Bool List Lia ZifyN ZifyBool.
From M Require Import gen.Consts base.MiniGo gen.Translated model.Wire proofs.MiniGoProofs.
Import ListNotations.
Local Open Scope Z_scope.

(* after [eqb_of_N_const] the two sides differ by the names T_.. of the numbers only *)
Theorem xl_isSessionProtocol_eq_model (p : N) : xl_protocol_isSessionProtocol (Z.of_N p) = is_session p.
Proof. unfold xl_protocol_isSessionProtocol. rewrite !eqb_of_N_const by lia. reflexivity. Qed.

Theorem xl_isLowEntropyProtocol_eq_wire (p : N) : xl_protocol_isLowEntropyProtocol (Z.of_N p) = is_low_entropy p.
Proof. unfold xl_protocol_isLowEntropyProtocol. rewrite !eqb_of_N_const by lia. reflexivity. Qed.

Theorem xl_isDataProtocol_eq_model (p : N) : xl_protocol_isDataProtocol (Z.of_N p) = is_data p.
Proof.
  unfold xl_protocol_isDataProtocol. rewrite xl_isLowEntropyProtocol_eq_wire, !eqb_of_N_const by lia. reflexivity.
Qed.

Theorem xl_isAckProtocol_eq_model (p : N) : xl_protocol_isAckProtocol (Z.of_N p) = is_ack p.
Proof. unfold xl_protocol_isAckProtocol. rewrite !eqb_of_N_const by lia. reflexivity. Qed.

Theorem xl_isDataAckProtocol_eq_model (p : N) : xl_protocol_isDataAckProtocol (Z.of_N p) = is_data_ack p.
Proof.
  unfold xl_protocol_isDataAckProtocol, is_data_ack.
  rewrite xl_isDataProtocol_eq_model, xl_isAckProtocol_eq_model. reflexivity.
Qed.

Example ex_xl_predicates :
  xl_protocol_isSessionProtocol 2 = true /\ xl_protocol_isSessionProtocol 6 = false /\
  xl_protocol_isDataAckProtocol 9 = true /\ xl_protocol_isDataAckProtocol 12 = false /\ xl_protocol_isLowEntropyProtocol 11 = true.
Proof. repeat split; reflexivity. Qed.

Lemma go_nth_bytes b k : go_nth (map Z.of_N b) k = Z.of_N (byte_at (Z.to_nat k) b).
Proof. apply (map_nth Z.of_N b 0%N). Qed.

Lemma slice_cons k n b : (k < length b)%nat -> slice k (S n) b = byte_at k b :: slice (S k) n b.
Proof.
  unfold slice, byte_at. revert b. induction k as [|k IH]; intros [|x b] H; cbn [length] in H; try lia.
  - reflexivity.
  - apply (IH b). lia.
Qed.

Lemma go_be16_bytes b k : 0 <= k -> (Z.to_nat k + 2 <= length b)%nat ->
  go_be16 (map Z.of_N b) k = Z.of_N (be_val (slice (Z.to_nat k) 2 b)).
Proof.
  intros Hk Hb. unfold go_be16. rewrite !go_nth_bytes, !slice_cons by lia.
  replace (Z.to_nat (k + 1)) with (S (Z.to_nat k)) by lia.
  unfold be_val. cbn [slice firstn rev app le_val]. lia.
Qed.

Lemma go_be32_bytes b k : 0 <= k -> (Z.to_nat k + 4 <= length b)%nat ->
  go_be32 (map Z.of_N b) k = Z.of_N (be_val (slice (Z.to_nat k) 4 b)).
Proof.
  intros Hk Hb. unfold go_be32. rewrite !go_nth_bytes, !slice_cons by lia.
  replace (Z.to_nat (k + 1)) with (S (Z.to_nat k)) by lia.
  replace (Z.to_nat (k + 2)) with (S (S (Z.to_nat k))) by lia.
  replace (Z.to_nat (k + 3)) with (S (S (S (Z.to_nat k)))) by lia.
  unfold be_val. cbn [slice firstn rev app le_val]. lia.
Qed.

(* PutUint16/32 store v / 2^(8i) mod 256: the model's be16 / be32 under Z.of_N *)

Lemma of_N_be16 v : map Z.of_N (be16 v) = [Z.of_N v / 256 mod 256; Z.of_N v mod 256].
Proof. unfold be16. cbn [map]. rewrite !N2Z.inj_mod, N2Z.inj_div. reflexivity. Qed.

Lemma of_N_be32 v : map Z.of_N (be32 v) =
  [Z.of_N v / 16777216 mod 256; Z.of_N v / 65536 mod 256; Z.of_N v / 256 mod 256; Z.of_N v mod 256].
Proof. unfold be32. cbn [map]. rewrite !N2Z.inj_mod, !N2Z.inj_div. reflexivity. Qed.

Lemma of_N_b8 v : (v < 256)%N -> Z.of_N (b8 v) = Z.of_N v.
Proof. intro H. unfold b8. rewrite N.mod_small by exact H. reflexivity. Qed.
