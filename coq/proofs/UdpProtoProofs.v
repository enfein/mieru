(* Proofs about model/UdpProto.v.  Each system of the model has one invariant with named clauses, proved kept step
   by step, and the theorems of props/C02.v and props/C13.v read their clauses: Inv (the LTS), AInv with SndInv and
   RcvInv (the trace acceptor), Sim over Wire (an accepted trace as a reachable LTS state), LInv over LInv1 (after
   Close), WInv (the windowed LTS). *)
From Coq Require Import List NArith Bool Arith Lia.
From M Require Import gen.Consts model.UdpProto.
Import ListNotations.
Open Scope nat_scope.

Lemma nth_some_lt : forall A (l : list A) i x, nth_error l i = Some x -> i < length l.
Proof. intros A l i x H. apply nth_error_Some. rewrite H. discriminate. Qed.

Lemma nth_app_some : forall A (l l' : list A) i x, nth_error l i = Some x -> nth_error (l ++ l') i = Some x.
Proof. intros A l l' i x H. rewrite nth_error_app1; [exact H | eapply nth_some_lt; eauto]. Qed.

(* the k-th element of l1 ++ l2, looked up in the two lists separately *)
Lemma nth_error_app_if : forall A (l1 l2 : list A) k,
  (if N.ltb k (N.of_nat (length l1)) then nth_error l1 (N.to_nat k) else nth_error l2 (N.to_nat k - length l1)) =
  nth_error (l1 ++ l2) (N.to_nat k).
Proof.
  intros A l1 l2 k. destruct (N.ltb_spec k (N.of_nat (length l1))).
  - rewrite nth_error_app1 by lia. reflexivity.
  - rewrite nth_error_app2 by lia. reflexivity.
Qed.

Lemma nth_app_last : forall A (l : list A) x, nth_error (l ++ [x]) (length l) = Some x.
Proof. intros. rewrite nth_error_app2, Nat.sub_diag by lia. reflexivity. Qed.

Lemma firstn_app_le : forall A (l l' : list A) n, n <= length l -> firstn n (l ++ l') = firstn n l.
Proof.
  intros A l l' n H. rewrite firstn_app, (proj2 (Nat.sub_0_le _ _) H). apply app_nil_r.
Qed.

Lemma firstn_S_nth : forall A (l : list A) n c, nth_error l n = Some c -> firstn (S n) l = firstn n l ++ [c].
Proof.
  intros A l. induction l as [|x l IH]; intros [|n] c H; try discriminate H.
  - injection H as ->. reflexivity.
  - rewrite !firstn_cons, (IH n c H). reflexivity.
Qed.

Lemma bytes_of_app : forall l l', bytes_of (l ++ l') = bytes_of l ++ bytes_of l'.
Proof. intros. unfold bytes_of. rewrite map_app, concat_app. reflexivity. Qed.

Definition Inv (s : st) : Prop :=
  una s <= sent_hi s /\ sent_hi s <= length (assigned s) /\
  (forall i c, In (i, c) (fwd s) -> nth_error (assigned s) i = Some c /\ i < sent_hi s) /\
  (forall i c, In (i, c) (rbuf s) -> nth_error (assigned s) i = Some c /\ i < sent_hi s) /\
  got s = firstn (next_recv s) (assigned s) /\
  next_recv s <= sent_hi s /\
  (forall u g, In (u, g) (back s) -> u <= g /\ g <= next_recv s) /\
  una s <= next_recv s /\
  rd s <= length (bytes_of (got s)) /\
  (forall i, i < sent_hi s -> exists c, In (i, c) (fwd s)).

Lemma inv_hi_len : forall s, Inv s -> sent_hi s <= length (assigned s).
Proof. intros s (_ & H & _). exact H. Qed.
Lemma inv_fwd : forall s i c, Inv s -> In (i, c) (fwd s) -> nth_error (assigned s) i = Some c /\ i < sent_hi s.
Proof. intros s i c (_ & _ & H & _). apply H. Qed.
Lemma inv_got : forall s, Inv s -> got s = firstn (next_recv s) (assigned s).
Proof. intros s (_ & _ & _ & _ & H & _). exact H. Qed.
Lemma inv_nr_hi : forall s, Inv s -> next_recv s <= sent_hi s.
Proof. intros s (_ & _ & _ & _ & _ & H & _). exact H. Qed.
Lemma inv_back : forall s u g, Inv s -> In (u, g) (back s) -> u <= g /\ g <= next_recv s.
Proof. intros s u g (_ & _ & _ & _ & _ & _ & H & _). apply H. Qed.
Lemma inv_una_nr : forall s, Inv s -> una s <= next_recv s.
Proof. intros s (_ & _ & _ & _ & _ & _ & _ & H & _). exact H. Qed.
Lemma inv_rd : forall s, Inv s -> rd s <= length (bytes_of (got s)).
Proof. intros s (_ & _ & _ & _ & _ & _ & _ & _ & H & _). exact H. Qed.
Lemma inv_cover : forall s i, Inv s -> i < sent_hi s -> exists c, In (i, c) (fwd s).
Proof. intros s i (_ & _ & _ & _ & _ & _ & _ & _ & _ & H). apply H. Qed.

(* compute the fields of an explicit state, in the goal and in the hypotheses *)
Ltac proj := cbn [assigned una sent_hi win fwd back next_recv rbuf got rd lost] in *.

Lemma init_inv : forall w, Inv (init w).
Proof.
  intros w. unfold Inv, init. proj. repeat split; try lia; try (intros; contradiction).
Qed.

Lemma step_inv : forall s l s', Inv s -> lstep s l s' -> Inv s'.
Proof.
  intros s l s' (I1 & I2 & I3 & I4 & I5 & I6 & I7 & I8 & I9 & I10) H. unfold Inv.
  (* the clauses are split at top level only: those a step does not touch are then literally hypotheses; each goal
     left is a clause whose fields the step changes, named below as step: clause *)
  destruct H; proj; repeat apply conj; try assumption; try lia.
  - (* write: hi_len *) rewrite app_length. lia.
  - (* write: fwd *) intros i c0 Hin. apply I3 in Hin. split; [apply nth_app_some|]; apply Hin.
  - (* write: rbuf *) intros i c0 Hin. apply I4 in Hin. split; [apply nth_app_some|]; apply Hin.
  - (* write: got *) rewrite firstn_app_le by lia. exact I5.
  - (* sendnew: hi_len *) exact (nth_some_lt _ _ _ _ H).
  - (* sendnew: fwd *)
    intros i c0 [E | Hin]; [injection E as <- <-; split; [exact H | lia]|]. apply I3 in Hin. split; [apply Hin | lia].
  - (* sendnew: rbuf *) intros i c0 Hin. apply I4 in Hin. split; [apply Hin | lia].
  - (* sendnew: cover *) intros i Hi. destruct (Nat.eq_dec i (sent_hi s)) as [-> | Hne]; [exists c; left; reflexivity|].
    destruct (I10 i ltac:(lia)) as [c' Hc']. exists c'. right. exact Hc'.
  - (* retx: fwd *) intros j c0 [E | Hin]; [injection E as <- <-|]; auto.
  - (* retx: cover *) intros j Hj. destruct (I10 j Hj) as [c' Hc']. exists c'. right. exact Hc'.
  - (* recvdata: rbuf *) intros j c0 [E | Hin]; [injection E as <- <-|]; auto.
  - (* dropbuf: rbuf *) intros j c0 Hin. apply I4. rewrite H. rewrite in_app_iff in *. cbn [In]. tauto.
  - (* move: got *) destruct (I4 _ _ H) as [Hn _]. rewrite (firstn_S_nth _ _ _ _ Hn), I5. reflexivity.
  - (* move: nr_hi *) apply (I4 _ _ H).
  - (* move: back *) intros u g Hin. apply I7 in Hin. lia.
  - (* move: rd *) rewrite bytes_of_app, app_length. lia.
  - (* sendack: back *) intros u0 g [E | Hin]; [injection E as <- <-; rewrite I5, firstn_length_le; lia | auto].
  - (* recvack: una_nr *) apply I7 in H. lia.
Qed.

Lemma reach_inv : forall s, reach s -> Inv s.
Proof. intros s H. induction H; [apply init_inv | eapply step_inv; eauto]. Qed.

Lemma reach_run : forall s ls s', reach s -> run s ls s' -> reach s'.
Proof. intros s ls s' HR H. induction H as [|s l s1 ls s2 Hs _ IH]; [exact HR|]. apply IH. eapply reach_step; eauto. Qed.

Lemma exactly_once_in_order : forall s, reach s -> exists rest, written_bytes s = read_bytes s ++ rest.
Proof.
  intros s H. apply reach_inv in H. unfold written_bytes, read_bytes.
  exists (skipn (rd s) (bytes_of (got s)) ++ bytes_of (skipn (next_recv s) (assigned s))).
  rewrite app_assoc, firstn_skipn, (inv_got _ H), <- bytes_of_app, firstn_skipn. reflexivity.
Qed.

Lemma ack_never_ahead : forall s u g, reach s -> In (u, g) (back s) -> u <= g /\ g <= length (got s).
Proof.
  intros s u g H Hin. apply reach_inv in H. apply (inv_back _ _ _ H) in Hin.
  pose proof (inv_nr_hi _ H). pose proof (inv_hi_len _ H). rewrite (inv_got _ H), firstn_length_le by lia. exact Hin.
Qed.

Lemma retx_same_content : forall s i c1 c2, reach s -> In (i, c1) (fwd s) -> In (i, c2) (fwd s) ->
  c1 = c2 /\ nth_error (assigned s) i = Some c1.
Proof.
  intros s i c1 c2 H H1 H2. apply reach_inv in H.
  apply (inv_fwd _ _ _ H) in H1. apply (inv_fwd _ _ _ H) in H2. destruct H1 as [H1 _], H2 as [H2 _].
  rewrite H1 in H2. injection H2 as ->. auto.
Qed.

Lemma seq_gapless : forall s, reach s ->
  (forall i c, In (i, c) (fwd s) -> i < sent_hi s) /\
  (forall i, i < sent_hi s -> exists c, In (i, c) (fwd s)) /\
  sent_hi s <= length (assigned s) /\
  (forall l s', lstep s l s' ->
     (forall i c, nth_error (assigned s) i = Some c -> nth_error (assigned s') i = Some c) /\
     (forall i, l = LSendNew i -> i = sent_hi s /\ sent_hi s' = S i) /\
     (forall c, l = LWrite c -> nth_error (assigned s') (length (assigned s)) = Some c /\
                                length (assigned s') = S (length (assigned s)))).
Proof.
  intros s H. apply reach_inv in H.
  split; [intros i c Hin; apply (inv_fwd _ _ _ H Hin)|]. split; [intros i; apply (inv_cover _ _ H)|].
  split; [exact (inv_hi_len _ H)|].
  intros l s' Hs. destruct Hs; proj; (split; [|split]); try (intros; discriminate); try (intros; assumption).
  - intros i c0 Hn. apply nth_app_some. exact Hn.
  - intros c0 E. injection E as <-. split.
    + apply nth_app_last.
    + rewrite app_length. cbn [length]. lia.
  - intros i E. injection E as <-. auto.
Qed.

Lemma no_premature_discard : forall s, reach s ->
  una s <= next_recv s /\
  (next_recv s < length (assigned s) ->
     exists c, nth_error (assigned s) (next_recv s) = Some c /\ una s <= next_recv s < length (assigned s)).
Proof.
  intros s H. apply reach_inv in H. pose proof (inv_una_nr _ H) as I8.
  split; [exact I8|]. intros Hlt.
  destruct (nth_error (assigned s) (next_recv s)) as [c|] eqn:E.
  - exists c. split; [reflexivity | lia].
  - apply nth_error_None in E. lia.
Qed.

Lemma next_recv_mono : forall s l s', lstep s l s' -> next_recv s <= next_recv s'.
Proof. intros s l s' H. destruct H; proj; lia. Qed.

Lemma recv_move : forall s c, In (next_recv s, c) (fwd s) ->
  exists s2 s3, lstep s (LRecvData (next_recv s) c) s2 /\ lstep s2 LMove s3 /\ next_recv s3 = S (next_recv s).
Proof.
  intros s c Hin. eexists _, _. split; [apply s_recvdata; exact Hin|].
  split; [apply (s_move _ c); left; reflexivity | reflexivity].
Qed.

(* while a written segment is undelivered and either a segment beyond the receiver's position is sent already or the
   window is open, the segment the receiver awaits can be put on the wire *)
Lemma transmit_awaited : forall s, reach s -> next_recv s < length (assigned s) ->
  (next_recv s < sent_hi s \/ 0 < win s) ->
  exists l s1 c, (l = LRetx (next_recv s) \/ l = LSendNew (next_recv s)) /\
    (next_recv s < sent_hi s -> l = LRetx (next_recv s)) /\
    lstep s l s1 /\ In (next_recv s, c) (fwd s1) /\ next_recv s1 = next_recv s /\
    nth_error (assigned s) (next_recv s) = Some c.
Proof.
  intros s HR Hund Hen. pose proof (inv_nr_hi _ (reach_inv _ HR)) as I6.
  destruct (no_premature_discard _ HR) as [Hu Hc]. destruct (Hc Hund) as (c & Hn & _).
  assert (Hcase : next_recv s < sent_hi s \/ next_recv s = sent_hi s /\ 0 < win s) by lia.
  destruct Hcase as [Hlt | [E Hw]]; eexists _, _, c.
  - split; [left; reflexivity|]. split; [reflexivity|].
    split; [exact (s_retx s _ c Hu Hlt Hn)|]. split; [left; reflexivity|]. split; [reflexivity | exact Hn].
  - rewrite E in Hn |- *. split; [right; reflexivity|]. split; [lia|].
    split; [exact (s_sendnew s c Hn Hw)|]. split; [left; reflexivity|]. split; [exact E | exact Hn].
Qed.

Lemma progress_partial : forall s, reach s -> next_recv s < length (assigned s) ->
  (next_recv s < sent_hi s \/ 0 < win s) ->
  exists l s1 c s2 s3,
    (l = LRetx (next_recv s) \/ l = LSendNew (next_recv s)) /\
    (next_recv s < sent_hi s -> l = LRetx (next_recv s)) /\
    lstep s l s1 /\ lstep s1 (LRecvData (next_recv s) c) s2 /\ lstep s2 LMove s3 /\
    next_recv s3 = S (next_recv s) /\ nth_error (assigned s) (next_recv s) = Some c.
Proof.
  intros s HR Hund Hen.
  destruct (transmit_awaited s HR Hund Hen) as (l & s1 & c & Hl & Hr & H1 & Hin & E1 & Hn).
  rewrite <- E1 in Hin. destruct (recv_move s1 c Hin) as (s2 & s3 & H2 & H3 & E3). rewrite E1 in *.
  exists l, s1, c, s2, s3. auto 10.
Qed.

Lemma progress_needs_window : forall s, next_recv s = sent_hi s -> win s = 0 ->
  forall l s', lstep s l s' -> is_awaited s l = 0.
Proof.
  intros s E W l s' H. destruct H; unfold is_awaited; proj; try reflexivity.
  - lia.
  - destruct (Nat.eqb_spec i (next_recv s)); [lia | reflexivity].
Qed.

Lemma progress_unconditional_refuted : exists s, reach s /\ next_recv s < length (assigned s) /\
  forall l s', lstep s l s' -> is_awaited s l = 0.
Proof.
  exists (mkSt [mkC 7 0 [1%N]] 0 0 0 [] [] 0 [] [] 0 0). split; [|split].
  - eapply reach_step; [apply (reach_init 0) | apply (s_write (init 0) (mkC 7 0 [1%N]))].
  - cbn. lia.
  - apply progress_needs_window; reflexivity.
Qed.

(* in a K-fair run every transmission of the awaited segment either is followed by an advance of the receiver or
   uses up one of the K - 1 tolerated losses *)
Lemma step_count : forall K s l s1, lost s < K -> lstep s l s1 ->
  is_awaited s l + lost s <= K * (next_recv s1 - next_recv s) + lost s1.
Proof.
  intros K s l s1 HK H. destruct H; unfold is_awaited, bump; proj; try lia.
  - destruct (Nat.eqb (sent_hi s) (next_recv s)); lia.
  - destruct (Nat.eqb i (next_recv s)); lia.
Qed.

Lemma fair_run_facts : forall K s t s', fair_run K s t s' ->
  next_recv s <= next_recv s' /\ lost s' < K /\ t + lost s <= K * (next_recv s' - next_recv s) + lost s'.
Proof.
  intros K s t s' H. induction H as [s HK | s l s1 t s2 HK Hs HF (IHm & IHl & IHc)].
  - repeat split; lia.
  - pose proof (next_recv_mono _ _ _ Hs) as Hm. pose proof (step_count K _ _ _ HK Hs) as Hc.
    repeat split; try lia.
    replace (next_recv s2 - next_recv s) with ((next_recv s1 - next_recv s) + (next_recv s2 - next_recv s1)) by lia.
    rewrite Nat.mul_add_distr_l. lia.
Qed.

Lemma fair_completion : forall K s t s' u, fair_run K s t s' -> K * u <= t -> next_recv s + u <= next_recv s'.
Proof.
  intros K s t s' u H Ht. destruct (fair_run_facts _ _ _ _ H) as (Hm & Hl & Hc).
  assert (Hk : K * u < K * (S (next_recv s' - next_recv s))) by (rewrite Nat.mul_succ_r; lia).
  apply Nat.mul_lt_mono_pos_l in Hk; lia.
Qed.

Lemma bytes_eqb_eq : forall a b, bytes_eqb a b = true -> a = b.
Proof.
  induction a as [|x a IH]; destruct b as [|y b]; cbn; intros H; try discriminate; try reflexivity.
  apply andb_true_iff in H. destruct H as [H1 H2]. apply N.eqb_eq in H1. subst. f_equal. auto.
Qed.

Lemma content_eqb_eq : forall a b, content_eqb a b = true -> a = b.
Proof.
  intros [t1 f1 p1] [t2 f2 p2]. unfold content_eqb. cbn. intros H.
  apply andb_true_iff in H. destruct H as [H H3]. apply andb_true_iff in H. destruct H as [H1 H2].
  apply N.eqb_eq in H1, H2. apply bytes_eqb_eq in H3. subst. reflexivity.
Qed.

Lemma strip1_spec : forall p c,
  match strip1 p c with
  | None => True
  | Some (inl rp) => p = c ++ rp
  | Some (inr rc) => c = p ++ rc
  end.
Proof.
  induction p as [|x p IH]; intros c.
  - reflexivity.
  - destruct c as [|y c]; cbn [strip1].
    + reflexivity.
    + destruct (N.eqb_spec x y) as [-> | Hne]; [|exact I].
      specialize (IH c). destruct (strip1 p c) as [[rp | rc] |]; cbn; try exact I; f_equal; exact IH.
Qed.

Lemma strip_spec : forall cs p cs', strip p cs = Some cs' -> concat cs = p ++ concat cs'.
Proof.
  induction cs as [|c cs IH]; intros p cs' H; cbn [strip] in H.
  - destruct p; [injection H as <-; reflexivity | discriminate].
  - pose proof (strip1_spec p c) as S1. destruct (strip1 p c) as [[rp | rc] |]; [| |discriminate].
    + apply IH in H. cbn [concat]. rewrite H, S1, app_assoc. reflexivity.
    + destruct rc as [|z rc].
      * injection H as <-. cbn [concat]. rewrite S1, app_nil_r. reflexivity.
      * injection H as <-. cbn [concat]. rewrite S1, app_assoc. reflexivity.
Qed.

Lemma all_nil_concat : forall l, all_nil l = true -> concat l = [].
Proof.
  induction l as [|c l IH]; cbn; intros H; [reflexivity|].
  apply andb_true_iff in H. destruct H as [H1 H2]. destruct c; [|discriminate]. cbn. auto.
Qed.

Lemma take_spec : forall n l c r, take n l = Some (c, r) -> In (n, c) l /\ (forall x, In x r -> In x l).
Proof.
  induction l as [|[i ci] l IH]; intros c r H; cbn [take] in H; [discriminate|].
  destruct (Nat.eqb_spec i n) as [-> | Hne].
  - injection H as <- <-. split; [left; reflexivity | intros x Hx; right; exact Hx].
  - destruct (take n l) as [[c' r']|] eqn:E; [|discriminate]. injection H as <- <-.
    destruct (IH _ _ eq_refl) as [H1 H2]. split; [right; exact H1|].
    intros x [Hx | Hx]; [left; exact Hx | right; auto].
Qed.

Lemma drain_spec : forall (asg : list content) fuel nr rb nr' rb' rel,
  drain fuel nr rb = (nr', rb', rel) ->
  (forall i c, In (i, c) rb -> nth_error asg i = Some c) ->
  nr <= length asg ->
  nr <= nr' /\ nr' <= length asg /\
  bytes_of (firstn nr' asg) = bytes_of (firstn nr asg) ++ concat rel /\
  (forall x, In x rb' -> In x rb) /\
  (forall j, nr <= j < nr' -> exists c, In (j, c) rb).
Proof.
  intros asg. induction fuel as [|f IH]; intros nr rb nr' rb' rel H Hrb Hle; cbn [drain] in H.
  - injection H as <- <- <-. cbn [concat]. rewrite app_nil_r. repeat split; try lia; auto.
  - destruct (take nr rb) as [[c rb1]|] eqn:ET.
    + destruct (drain f (S nr) rb1) as [[nr2 rb2] rel2] eqn:ED. injection H as <- <- <-.
      destruct (take_spec _ _ _ _ ET) as [Hin Hsub].
      pose proof (Hrb _ _ Hin) as Hn. pose proof (nth_some_lt _ _ _ _ Hn) as Hlt.
      destruct (IH _ _ _ _ _ ED) as (A1 & A2 & A3 & A4 & A5).
      { intros i c' Hi. apply Hrb. apply Hsub. exact Hi. }
      { lia. }
      repeat split; try lia.
      * rewrite A3. rewrite (firstn_S_nth _ _ _ _ Hn), bytes_of_app. unfold bytes_of at 2. cbn [map concat].
        rewrite app_nil_r, <- app_assoc. reflexivity.
      * intros x Hx. apply Hsub. apply A4. exact Hx.
      * intros j Hj. destruct (Nat.eq_dec j nr) as [-> | Hne]; [exists c; exact Hin|].
        destruct (A5 j ltac:(lia)) as [c' Hc']. exists c'. apply Hsub. exact Hc'.
    + injection H as <- <- <-. cbn [concat]. rewrite app_nil_r. repeat split; try lia; auto.
Qed.

Lemma concat_map_snoc : forall A B (f : A -> list B) l x, concat (map f (l ++ [x])) = concat (map f l) ++ f x.
Proof. intros. rewrite map_app, concat_app. cbn. rewrite app_nil_r. reflexivity. Qed.

Lemma written_snoc : forall X tr e, written X (tr ++ [e]) = written X tr ++ ev_written X e.
Proof. intros. apply concat_map_snoc. Qed.
Lemma readb_snoc : forall X tr e, readb X (tr ++ [e]) = readb X tr ++ ev_read X e.
Proof. intros. apply concat_map_snoc. Qed.
Lemma emitted_snoc : forall X tr e, emitted X (tr ++ [e]) = emitted X tr ++ ev_emit X e.
Proof. intros. apply concat_map_snoc. Qed.
Lemma emitted_app : forall X t1 t2, emitted X (t1 ++ t2) = emitted X t1 ++ emitted X t2.
Proof. intros. unfold emitted. rewrite map_app, concat_app. reflexivity. Qed.

Lemma emitted_own : forall tr X g, emitted X (tr ++ [ES X g]) = emitted X tr ++ [g].
Proof. intros. rewrite emitted_snoc. cbn [ev_emit]. rewrite eqb_reflx. reflexivity. Qed.

Definition ev_side (e : event) : option bool :=
  match e with EW X _ | ES X _ | ER X _ | EA X _ => Some X | EF => None end.

Lemma ev_other : forall X e, ev_side e <> Some X -> ev_written X e = [] /\ ev_emit X e = [] /\ ev_read X e = [].
Proof.
  intros X e H. destruct e as [Y b | Y g | Y k | Y b |]; cbn in *; auto;
    destruct (Bool.eqb_spec Y X) as [-> | _]; auto; contradiction.
Qed.

Lemma emitted_other : forall X tr e, ev_side e <> Some X -> emitted X (tr ++ [e]) = emitted X tr.
Proof. intros X tr e H. destruct (ev_other X e H) as (_ & E & _). rewrite emitted_snoc, E. apply app_nil_r. Qed.

Lemma delivered_mono : forall X tr l i, delivered X tr i -> delivered X (tr ++ l) i.
Proof.
  intros X tr l i (a & k & b & g & E & Hn & Hs & Hi). exists a, k, (b ++ l), g.
  split; [rewrite E, <- app_assoc; reflexivity | auto].
Qed.
Lemma emitted_seq_mono : forall X tr l i, emitted_seq X tr i -> emitted_seq X (tr ++ l) i.
Proof.
  intros X tr l i (g & Hin & Hs & Hi). exists g. split; [|auto]. rewrite emitted_app. apply in_or_app. left. exact Hin.
Qed.

(* the shape of the theorems about a trace: tr = pre ++ e :: post -> P pre e *)
Definition each_split {A} (P : list A -> A -> Prop) (l : list A) : Prop := forall a e b, l = a ++ e :: b -> P a e.

Lemma each_split_nil : forall A (P : list A -> A -> Prop), each_split P [].
Proof. intros A P a e b E. destruct a; discriminate. Qed.

Lemma each_split_snoc : forall A (P : list A -> A -> Prop) l e, each_split P l -> P l e -> each_split P (l ++ [e]).
Proof.
  intros A P l e H HP a e' b E. destruct b as [|z b _] using rev_ind.
  - apply app_inj_tail in E. destruct E as [<- <-]. exact HP.
  - rewrite app_comm_cons, app_assoc in E. apply app_inj_tail in E. destruct E as [E _]. exact (H _ _ _ E).
Qed.

(* what the acceptor checked at an event, said of the trace before it *)
Definition Pev (a : list event) (e : event) : Prop :=
  match e with
  | ES X g => (forall i, (N.of_nat i < g_unack g)%N -> delivered X a i) /\
              (is_seq X (g_ty g) = true -> forall i, (N.of_nat i < g_seq g)%N -> emitted_seq X a i)
  | ER X k => N.to_nat k < length (emitted (negb X) a)
  | _ => True
  end.

(* the sender half of endpoint X against the trace *)
Record SndInv (tr : list event) (X : bool) (pend : list bytes) (asg : list content) (emit : list dg) : Prop := mkSnd {
  snd_written : written X tr = bytes_of asg ++ concat pend;     (* the bound contents, then what is pending *)
  snd_emit : emit = emitted X tr;
  snd_bound : forall g, In g (emitted X tr) -> is_seq X (g_ty g) = true ->
                nth_error asg (N.to_nat (g_seq g)) = Some (cont g);
  snd_sent : forall i, i < length asg -> emitted_seq X tr i
}.

(* the receiver half; asgY is the peer's history of bindings *)
Record RcvInv (tr : list event) (X : bool) (nr : nat) (rb : list (nat * content)) (av : list bytes)
              (asgY : list content) : Prop := mkRcv {
  rcv_below : forall i, i < nr -> delivered X tr i;
  rcv_buf : forall i c, In (i, c) rb -> nth_error asgY i = Some c /\ delivered X tr i;
  rcv_nr_len : nr <= length asgY;
  rcv_bytes : bytes_of (firstn nr asgY) = readb X tr ++ concat av     (* the bytes read, then those available *)
}.

Record AInv (tr : list event) (a : ast) : Prop := mkAInv {
  ai_pev : each_split Pev tr;
  ai_snd : forall X, SndInv tr X (e_pend (getE X a)) (e_asg (getE X a)) (e_emit (getE X a));
  ai_rcv : forall X, RcvInv tr X (e_nr (getE X a)) (e_rbuf (getE X a)) (e_avail (getE X a)) (e_asg (getE (negb X) a))
}.

Lemma snd_frame : forall tr X pend asg emit e, SndInv tr X pend asg emit ->
  ev_written X e = [] -> ev_emit X e = [] -> SndInv (tr ++ [e]) X pend asg emit.
Proof.
  intros tr X pend asg emit e [S1 S2 S3 S4] Hw He.
  constructor; rewrite ?written_snoc, ?emitted_snoc, ?Hw, ?He, ?app_nil_r; auto.
  intros i Hi. apply emitted_seq_mono, S4, Hi.
Qed.

(* an event of endpoint X that delivers nothing: it may return released bytes to the application *)
Lemma rcv_snoc : forall tr X nr rb av av' asgY e, RcvInv tr X nr rb av asgY ->
  concat av = ev_read X e ++ concat av' -> RcvInv (tr ++ [e]) X nr rb av' asgY.
Proof.
  intros tr X nr rb av av' asgY e [R1 R2 R3 R4] Hr. constructor.
  - intros i Hi. apply delivered_mono, R1, Hi.
  - intros i c Hin. apply R2 in Hin. split; [|apply delivered_mono]; apply Hin.
  - exact R3.
  - rewrite readb_snoc, R4, Hr, app_assoc. reflexivity.
Qed.

Lemma rcv_frame : forall tr X nr rb av asgY e, RcvInv tr X nr rb av asgY ->
  ev_read X e = [] -> RcvInv (tr ++ [e]) X nr rb av asgY.
Proof. intros tr X nr rb av asgY e H Hr. apply (rcv_snoc _ _ _ _ av); [exact H | rewrite Hr; reflexivity]. Qed.

Lemma rcv_asg_ext : forall tr X nr rb av asgY l, RcvInv tr X nr rb av asgY -> RcvInv tr X nr rb av (asgY ++ l).
Proof.
  intros tr X nr rb av asgY l [R1 R2 R3 R4]. constructor.
  - exact R1.
  - intros i c Hin. apply R2 in Hin. split; [apply nth_app_some|]; apply Hin.
  - rewrite app_length. lia.
  - rewrite firstn_app_le by lia. exact R4.
Qed.

Lemma snd_write : forall tr X pend asg emit b, SndInv tr X pend asg emit ->
  SndInv (tr ++ [EW X b]) X (pend ++ [b]) asg emit.
Proof.
  intros tr X pend asg emit b [S1 S2 S3 S4].
  constructor; rewrite ?written_snoc, ?emitted_snoc; cbn [ev_written ev_emit]; rewrite ?eqb_reflx, ?app_nil_r; auto.
  - rewrite S1, concat_app. cbn [concat]. rewrite app_nil_r, app_assoc. reflexivity.
  - intros i Hi. apply emitted_seq_mono, S4, Hi.
Qed.

Lemma snd_new : forall tr X pend asg emit g pend', SndInv tr X pend asg emit ->
  is_seq X (g_ty g) = true -> N.to_nat (g_seq g) = length asg -> strip (g_pay g) pend = Some pend' ->
  SndInv (tr ++ [ES X g]) X pend' (asg ++ [cont g]) (emit ++ [g]).
Proof.
  intros tr X pend asg emit g pend' [S1 S2 S3 S4] Hs Hn Hp. constructor; rewrite ?emitted_own.
  - rewrite written_snoc. cbn [ev_written]. rewrite app_nil_r, S1, (strip_spec _ _ _ Hp), bytes_of_app.
    unfold bytes_of at 3. cbn [map concat cont c_pay]. rewrite app_nil_r, <- app_assoc. reflexivity.
  - rewrite S2. reflexivity.
  - intros g' Hin Hs'. apply in_app_or in Hin. destruct Hin as [Hin | [<- | []]].
    + apply nth_app_some. auto.
    + rewrite Hn. apply nth_app_last.
  - intros i Hi. rewrite app_length in Hi. cbn [length] in Hi.
    destruct (Nat.eq_dec i (length asg)) as [-> | Hne].
    + exists g. rewrite emitted_own. split; [apply in_or_app; right; left; reflexivity | auto].
    + apply emitted_seq_mono. apply S4. lia.
Qed.

(* a retransmission or a pure ack *)
Lemma snd_old : forall tr X pend asg emit g, SndInv tr X pend asg emit ->
  (is_seq X (g_ty g) = true -> nth_error asg (N.to_nat (g_seq g)) = Some (cont g)) ->
  SndInv (tr ++ [ES X g]) X pend asg (emit ++ [g]).
Proof.
  intros tr X pend asg emit g [S1 S2 S3 S4] Hn. constructor; rewrite ?emitted_own.
  - rewrite written_snoc. cbn [ev_written]. rewrite app_nil_r. exact S1.
  - rewrite S2. reflexivity.
  - intros g' Hin. apply in_app_or in Hin. destruct Hin as [Hin | [<- | []]]; auto.
  - intros i Hi. apply emitted_seq_mono, S4, Hi.
Qed.

Lemma rcv_deliver : forall tr X nr rb av asgY k g fuel nr' rb' rel, RcvInv tr X nr rb av asgY ->
  nth_error (emitted (negb X) tr) (N.to_nat k) = Some g -> is_seq (negb X) (g_ty g) = true ->
  nth_error asgY (N.to_nat (g_seq g)) = Some (cont g) ->
  drain fuel nr ((N.to_nat (g_seq g), cont g) :: rb) = (nr', rb', rel) ->
  RcvInv (tr ++ [ER X k]) X nr' rb' (av ++ rel) asgY.
Proof.
  intros tr X nr rb av asgY k g fuel nr' rb' rel [R1 R2 R3 R4] Hg Hs Hn HD.
  assert (Hrb : forall j cj, In (j, cj) ((N.to_nat (g_seq g), cont g) :: rb) ->
                  nth_error asgY j = Some cj /\ delivered X (tr ++ [ER X k]) j).
  { intros j cj [E | Hin].
    - injection E as <- <-. split; [exact Hn | exists tr, k, [], g; auto].
    - apply R2 in Hin. split; [|apply delivered_mono]; apply Hin. }
  destruct (drain_spec asgY _ _ _ _ _ _ HD) as (A1 & A2 & A3 & A4 & A5); [intros j cj Hj; apply Hrb; exact Hj | exact R3 |].
  constructor.
  - intros j Hj. destruct (Nat.lt_ge_cases j nr) as [Hlt | Hge]; [apply delivered_mono; auto|].
    destruct (A5 j ltac:(lia)) as [cj Hcj]. apply Hrb in Hcj. apply Hcj.
  - intros j cj Hin. apply Hrb. apply A4. exact Hin.
  - exact A2.
  - rewrite readb_snoc. cbn [ev_read]. rewrite app_nil_r, A3, R4, concat_app, app_assoc. reflexivity.
Qed.
Lemma getE_setE_same : forall X x a, getE X (setE X x a) = x.
Proof. destruct X; reflexivity. Qed.
Lemma getE_setE_other : forall X Y x a, Y <> X -> getE Y (setE X x a) = getE Y a.
Proof. destruct X, Y; intros x a H; reflexivity || contradiction. Qed.
Lemma side_cases : forall X D : bool, X = D \/ X = negb D.
Proof. destruct X, D; auto. Qed.
Lemma ev_written_other : forall S e, (forall b, e <> EW S b) -> ev_written (negb S) e = [] \/ exists b, e = EW (negb S) b.
Proof. intros S e H. destruct e; cbn; auto. destruct X, S; cbn; eauto; exfalso; eapply H; reflexivity. Qed.

(* the accepting branches of acc_step: [x] is the record of the endpoint the event happens at *)
Inductive astep (a : ast) : event -> ast -> Prop :=
| as_write : forall X b x, x = getE X a ->
    astep a (EW X b) (setE X (mkEp (e_pend x ++ [b]) (e_asg x) (e_emit x) (e_nr x) (e_rbuf x) (e_avail x)) a)
| as_new : forall X g x pend', x = getE X a -> (g_unack g <= N.of_nat (e_nr x))%N ->
    is_seq X (g_ty g) = true -> N.to_nat (g_seq g) = length (e_asg x) -> strip (g_pay g) (e_pend x) = Some pend' ->
    astep a (ES X g) (setE X (mkEp pend' (e_asg x ++ [cont g]) (e_emit x ++ [g]) (e_nr x) (e_rbuf x) (e_avail x)) a)
| as_old : forall X g x, x = getE X a -> (g_unack g <= N.of_nat (e_nr x))%N ->
    (is_seq X (g_ty g) = true -> nth_error (e_asg x) (N.to_nat (g_seq g)) = Some (cont g)) ->
    astep a (ES X g) (setE X (mkEp (e_pend x) (e_asg x) (e_emit x ++ [g]) (e_nr x) (e_rbuf x) (e_avail x)) a)
| as_skip : forall X k g, nth_error (e_emit (getE (negb X) a)) (N.to_nat k) = Some g -> astep a (ER X k) a
| as_deliver : forall X k g x fuel nr' rb' rel, x = getE X a ->
    nth_error (e_emit (getE (negb X) a)) (N.to_nat k) = Some g -> is_seq (negb X) (g_ty g) = true ->
    drain fuel (e_nr x) ((N.to_nat (g_seq g), cont g) :: e_rbuf x) = (nr', rb', rel) ->
    astep a (ER X k) (setE X (mkEp (e_pend x) (e_asg x) (e_emit x) nr' rb' (e_avail x ++ rel)) a)
| as_read : forall X b x av', x = getE X a -> strip b (e_avail x) = Some av' ->
    astep a (EA X b) (setE X (mkEp (e_pend x) (e_asg x) (e_emit x) (e_nr x) (e_rbuf x) av') a)
| as_fin : (forall X, all_nil (e_pend (getE X a)) = true /\ all_nil (e_avail (getE X a)) = true /\
                      e_nr (getE X a) = length (e_asg (getE (negb X) a))) ->
    astep a EF a.

Lemma acc_step_spec : forall a e a', acc_step a e = Acc a' -> astep a e a'.
Proof.
  intros a e a' H. destruct e as [X b | X g | X k | X b | ]; cbn [acc_step] in H.
  - injection H as <-. apply as_write. reflexivity.
  - destruct (N.leb_spec (g_unack g) (N.of_nat (e_nr (getE X a)))) as [Hack | Hack]; cbn [negb] in H; [|discriminate].
    destruct (is_seq X (g_ty g)) eqn:Hseq.
    + destruct (N.eqb_spec (g_seq g) (N.of_nat (length (e_asg (getE X a))))) as [Hnew | Hnn].
      * destruct (strip (g_pay g) (e_pend (getE X a))) as [pend'|] eqn:Hst; [|discriminate]. injection H as <-.
        apply as_new; auto. rewrite Hnew. apply Nat2N.id.
      * destruct (N.ltb (g_seq g) (N.of_nat (length (e_asg (getE X a))))); [|discriminate].
        destruct (nth_error (e_asg (getE X a)) (N.to_nat (g_seq g))) as [c|] eqn:Hn; [|discriminate].
        destruct (content_eqb c (cont g)) eqn:Hc; [|discriminate]. apply content_eqb_eq in Hc. subst c.
        injection H as <-. apply as_old; auto.
    + destruct (is_ack X (g_ty g)); [|discriminate]. injection H as <-. apply as_old; auto. congruence.
  - destruct (N.ltb k (N.of_nat (length (e_emit (getE (negb X) a))))); [|discriminate].
    destruct (nth_error (e_emit (getE (negb X) a)) (N.to_nat k)) as [g|] eqn:Hg; [|discriminate].
    destruct (is_seq (negb X) (g_ty g)) eqn:Hseq; [|injection H as <-; exact (as_skip a X k g Hg)].
    destruct (Nat.ltb (N.to_nat (g_seq g)) (e_nr (getE X a)) || has (N.to_nat (g_seq g)) (e_rbuf (getE X a)));
      [injection H as <-; exact (as_skip a X k g Hg)|].
    destruct (drain _ _ _) as [[nr' rb'] rel] eqn:HD. injection H as <-. eapply as_deliver; eauto.
  - destruct (strip b (e_avail (getE X a))) as [av'|] eqn:Hst; [|discriminate]. injection H as <-.
    apply as_read; auto.
  - match type of H with (if ?c then _ else _) = _ => destruct c eqn:Hok; [|discriminate] end. injection H as <-.
    (* Hok : ok false && ok true, one conjunct per endpoint *)
    apply as_fin. apply andb_true_iff in Hok. destruct Hok as [Hc Hs].
    intros [|]; [rewrite !andb_true_iff, Nat.eqb_eq in Hs | rewrite !andb_true_iff, Nat.eqb_eq in Hc]; tauto.
Qed.

(* the invariant after an event at endpoint X: what is to be shown concerns X's new record only (its history may
   have grown by l); the other endpoint's half follows by the frame lemmas *)
Lemma ainv_upd_ext : forall tr a X e l pend' emit' nr' rb' av',
  AInv tr a -> ev_side e = Some X -> Pev tr e ->
  SndInv (tr ++ [e]) X pend' (e_asg (getE X a) ++ l) emit' ->
  RcvInv (tr ++ [e]) X nr' rb' av' (e_asg (getE (negb X) a)) ->
  AInv (tr ++ [e]) (setE X (mkEp pend' (e_asg (getE X a) ++ l) emit' nr' rb' av') a).
Proof.
  intros tr a X e l pend' emit' nr' rb' av' [HH HS HR] Hside HP Hs Hr.
  destruct (ev_other (negb X) e) as (Ew & Ee & Er); [rewrite Hside; destruct X; discriminate|].
  constructor; [apply each_split_snoc; assumption | |]; intros Y; destruct (side_cases Y X) as [-> | ->];
    rewrite ?negb_involutive, ?getE_setE_same, ?getE_setE_other by (destruct X; discriminate);
    cbn [e_pend e_asg e_emit e_nr e_rbuf e_avail].
  - exact Hs.
  - apply snd_frame; [apply HS | exact Ew | exact Ee].
  - exact Hr.
  - specialize (HR (negb X)). rewrite negb_involutive in HR. apply rcv_frame; [apply rcv_asg_ext, HR | exact Er].
Qed.

Lemma ainv_upd : forall tr a X e pend' emit' nr' rb' av',
  AInv tr a -> ev_side e = Some X -> Pev tr e ->
  SndInv (tr ++ [e]) X pend' (e_asg (getE X a)) emit' ->
  RcvInv (tr ++ [e]) X nr' rb' av' (e_asg (getE (negb X) a)) ->
  AInv (tr ++ [e]) (setE X (mkEp pend' (e_asg (getE X a)) emit' nr' rb' av') a).
Proof.
  intros tr a X e pend' emit' nr' rb' av'. pose proof (ainv_upd_ext tr a X e [] pend' emit' nr' rb' av') as H.
  rewrite app_nil_r in H. exact H.
Qed.

Lemma ainv_frame : forall tr a e, AInv tr a -> Pev tr e ->
  (forall X, ev_written X e = [] /\ ev_emit X e = [] /\ ev_read X e = []) -> AInv (tr ++ [e]) a.
Proof.
  intros tr a e [HH HS HR] HP He.
  constructor; [apply each_split_snoc; assumption | |]; intros X; destruct (He X) as (Ew & Ee & Er).
  - apply snd_frame; [apply HS | exact Ew | exact Ee].
  - apply rcv_frame; [apply HR | exact Er].
Qed.

Lemma pev_emit : forall tr X pend asg emit nr rb av asgY g, SndInv tr X pend asg emit -> RcvInv tr X nr rb av asgY ->
  (g_unack g <= N.of_nat nr)%N -> (is_seq X (g_ty g) = true -> N.to_nat (g_seq g) <= length asg) -> Pev tr (ES X g).
Proof.
  intros tr X pend asg emit nr rb av asgY g Hs Hr Hu Hq. split.
  - intros i Hi. apply (rcv_below _ _ _ _ _ _ Hr). lia.
  - intros Hseq i Hi. apply (snd_sent _ _ _ _ _ Hs). specialize (Hq Hseq). lia.
Qed.

Lemma acc_step_inv : forall tr a e a', AInv tr a -> acc_step a e = Acc a' -> AInv (tr ++ [e]) a'.
Proof.
  intros tr a e a' HA H. apply acc_step_spec in H.
  destruct H as [X b x -> | X g x pend' -> Hu Hq Hn Hst | X g x -> Hu Hold | X k g Hg
                | X k g x fuel nr' rb' rel -> Hg Hq HD | X b x av' -> Hst | Hfin];
    try (pose proof (ai_snd _ _ HA X) as Hs; pose proof (ai_rcv _ _ HA X) as Hr).
  - apply ainv_upd; [exact HA | reflexivity | exact I | apply snd_write, Hs|].
    apply rcv_frame; [exact Hr | reflexivity].
  - apply ainv_upd_ext; [exact HA | reflexivity | | eapply snd_new; eassumption|].
    + apply (pev_emit _ _ _ _ _ _ _ _ _ _ Hs Hr Hu). lia.
    + apply rcv_frame; [exact Hr | reflexivity].
  - apply ainv_upd; [exact HA | reflexivity | | apply snd_old; assumption|].
    + apply (pev_emit _ _ _ _ _ _ _ _ _ _ Hs Hr Hu). intros Hq. apply Hold, nth_some_lt in Hq. lia.
    + apply rcv_frame; [exact Hr | reflexivity].
  - (* skip *) rewrite (snd_emit _ _ _ _ _ (ai_snd _ _ HA (negb X))) in Hg.
    apply ainv_frame; [exact HA | exact (nth_some_lt _ _ _ _ Hg) | intros Y; auto].
  - (* deliver *) pose proof (ai_snd _ _ HA (negb X)) as Hp. rewrite (snd_emit _ _ _ _ _ Hp) in Hg.
    apply ainv_upd; [exact HA | reflexivity | exact (nth_some_lt _ _ _ _ Hg) | apply snd_frame; auto|].
    eapply rcv_deliver; [exact Hr | exact Hg | exact Hq | | exact HD].
    apply (snd_bound _ _ _ _ _ Hp); [eapply nth_error_In; exact Hg | exact Hq].
  - (* read *) apply ainv_upd; [exact HA | reflexivity | exact I | apply snd_frame; auto|].
    eapply rcv_snoc; [exact Hr|]. cbn [ev_read]. rewrite eqb_reflx. apply strip_spec. exact Hst.
  - (* fin *) apply ainv_frame; [exact HA | exact I | intros Y; auto].
Qed.

Lemma a0_inv : AInv [] a0.
Proof.
  constructor; [apply each_split_nil | |]; intros X; destruct X; constructor; cbn; try reflexivity;
    intros; lia.
Qed.
Lemma run_acc_invariant : forall P : list event -> ast -> Prop,
  (forall tr a e a', P tr a -> acc_step a e = Acc a' -> P (tr ++ [e]) a') ->
  forall tr2 tr1 a idx a', P tr1 a -> run_acc a tr2 idx = inl a' -> P (tr1 ++ tr2) a'.
Proof.
  intros P Hstep. induction tr2 as [|e t IH]; intros tr1 a idx a' HI H; cbn [run_acc] in H.
  - injection H as <-. rewrite app_nil_r. exact HI.
  - destruct (acc_step a e) as [a1 | c] eqn:E; [|discriminate].
    change (tr1 ++ e :: t) with (tr1 ++ [e] ++ t). rewrite app_assoc. eapply IH; [|exact H]. eapply Hstep; eassumption.
Qed.

Lemma run_acc_app : forall t1 t2 a idx a', run_acc a (t1 ++ t2) idx = inl a' ->
  exists a1 idx1, run_acc a t1 idx = inl a1 /\ run_acc a1 t2 idx1 = inl a'.
Proof.
  induction t1 as [|e t IH]; intros t2 a idx a' H.
  - exists a, idx. split; [reflexivity | exact H].
  - cbn [app run_acc] in *. destruct (acc_step a e) as [a1 | c]; [|discriminate]. eapply IH. exact H.
Qed.

(* what direction D (sender endpoint D, receiver endpoint negb D) of a trace has put into the LTS state: r bytes
   read, the data datagrams among f, the acks among b *)
Record Wire (tr : list event) (D : bool) (r : nat) (f : list (nat * content)) (b : list (nat * nat)) : Prop := mkWire {
  w_read : r = length (readb (negb D) tr);
  w_data : forall g, In g (emitted D tr) -> is_seq D (g_ty g) = true -> In (N.to_nat (g_seq g), cont g) f;
  w_acks : forall g, In g (emitted (negb D) tr) -> exists gh, In (N.to_nat (g_unack g), gh) b
}.

Lemma wire_frame : forall tr D r f b e, Wire tr D r f b ->
  ev_emit D e = [] -> ev_emit (negb D) e = [] -> ev_read (negb D) e = [] -> Wire (tr ++ [e]) D r f b.
Proof.
  intros tr D r f b e [W1 W2 W3] E1 E2 E3.
  constructor; rewrite ?emitted_snoc, ?readb_snoc, ?E1, ?E2, ?E3, ?app_nil_r; assumption.
Qed.

Lemma wire_data : forall tr D r f f' b g, Wire tr D r f b -> incl f f' ->
  (is_seq D (g_ty g) = true -> In (N.to_nat (g_seq g), cont g) f') -> Wire (tr ++ [ES D g]) D r f' b.
Proof.
  intros tr D r f f' b g [W1 W2 W3] Hf Hg. constructor.
  - rewrite readb_snoc. cbn [ev_read]. rewrite app_nil_r. exact W1.
  - rewrite emitted_own. intros g0 Hg0 Hs0. apply in_app_or in Hg0. destruct Hg0 as [Hg0 | [<- | []]]; auto.
  - rewrite emitted_other by (destruct D; discriminate). exact W3.
Qed.

Lemma wire_ack : forall tr D r f b g gh, Wire tr D r f b ->
  Wire (tr ++ [ES (negb D) g]) D r f ((N.to_nat (g_unack g), gh) :: b).
Proof.
  intros tr D r f b g gh [W1 W2 W3]. constructor.
  - rewrite readb_snoc. cbn [ev_read]. rewrite app_nil_r. exact W1.
  - rewrite emitted_other by (destruct D; discriminate). exact W2.
  - rewrite emitted_own. intros g0 Hg0. apply in_app_or in Hg0. destruct Hg0 as [Hg0 | [<- | []]].
    + destruct (W3 _ Hg0) as [gh0 H]. exists gh0. right. exact H.
    + exists gh. left. reflexivity.
Qed.

Lemma wire_read : forall tr D r f b bs, Wire tr D r f b -> Wire (tr ++ [EA (negb D) bs]) D (r + length bs) f b.
Proof.
  intros tr D r f b bs [W1 W2 W3]. constructor; rewrite ?emitted_snoc, ?app_nil_r; try assumption.
  rewrite readb_snoc. cbn [ev_read]. rewrite eqb_reflx, app_length, W1. reflexivity.
Qed.

(* direction D of a trace as a reachable LTS state; asg is the sender's history of bindings, nr and rb the
   receiver's position and buffer.  The trace has no event for the processing of an ack, so the simulating sender
   never prunes sendBuf (una = 0): that keeps every retransmission of the trace a legal step, and it is why nothing
   is said about una and win of the state *)
Record Sim (tr : list event) (D : bool) (asg : list content) (nr : nat) (rb : list (nat * content)) (s : st) : Prop := mkSim {
  sim_reach : reach s;
  sim_una : una s = 0;
  sim_asg : assigned s = asg;
  sim_hi : sent_hi s = length asg;
  sim_nr : next_recv s = nr;
  sim_rbuf : incl rb (rbuf s);
  sim_wire : Wire tr D (rd s) (fwd s) (back s)
}.

Lemma sim_init : forall D, Sim [] D [] 0 [] (init 0).
Proof.
  intros D. constructor.
  - apply reach_init.
  - reflexivity.
  - reflexivity.
  - reflexivity.
  - reflexivity.
  - intros x [].
  - constructor; [reflexivity | intros g [] | intros g []].
Qed.

Lemma sim_frame : forall tr D asg nr rb s e, Sim tr D asg nr rb s ->
  ev_emit D e = [] -> ev_emit (negb D) e = [] -> ev_read (negb D) e = [] -> exists s', Sim (tr ++ [e]) D asg nr rb s'.
Proof.
  intros tr D asg nr rb s e [H1 H2 H3 H4 H5 H6 HW] E1 E2 E3. exists s.
  constructor; try assumption. apply wire_frame; assumption.
Qed.

(* the steps write, setwin (so win of the state is arbitrary), sendnew *)
Lemma sim_new : forall tr D asg nr rb s g, Sim tr D asg nr rb s -> N.to_nat (g_seq g) = length asg ->
  exists s', Sim (tr ++ [ES D g]) D (asg ++ [cont g]) nr rb s'.
Proof.
  intros tr D asg nr rb s g [H1 H2 H3 H4 H5 H6 HW] Hn.
  set (s2 := mkSt (assigned s ++ [cont g]) (una s) (sent_hi s) 1 (fwd s) (back s) (next_recv s) (rbuf s) (got s)
                  (rd s) (lost s)).
  assert (R2 : reach s2) by exact (reach_step _ _ _ (reach_step _ _ _ H1 (s_write s (cont g))) (s_setwin _ 1)).
  assert (Hb : nth_error (assigned s2) (sent_hi s2) = Some (cont g)) by (cbn; rewrite H4, <- H3; apply nth_app_last).
  pose proof (reach_step _ _ _ R2 (s_sendnew s2 (cont g) Hb (le_n 1))) as R3.
  eexists. constructor. { exact R3. } all: subst s2; proj; try assumption.
  - rewrite H3. reflexivity.
  - rewrite H4, app_length, Nat.add_1_r. reflexivity.
  - apply (wire_data _ _ _ (fwd s)); [exact HW | apply incl_tl, incl_refl | left; rewrite Hn, H4; reflexivity].
Qed.

(* retx; a pure ack is no move of this direction *)
Lemma sim_old : forall tr D asg nr rb s g, Sim tr D asg nr rb s ->
  (is_seq D (g_ty g) = true -> nth_error asg (N.to_nat (g_seq g)) = Some (cont g)) ->
  exists s', Sim (tr ++ [ES D g]) D asg nr rb s'.
Proof.
  intros tr D asg nr rb s g [H1 H2 H3 H4 H5 H6 HW] Hold. destruct (is_seq D (g_ty g)) eqn:Hq.
  - specialize (Hold eq_refl). pose proof (nth_some_lt _ _ _ _ Hold) as Hlt. rewrite <- H3 in Hold.
    assert (Hlo : una s <= N.to_nat (g_seq g)) by lia. rewrite <- H4 in Hlt.
    pose proof (reach_step _ _ _ H1 (s_retx s _ _ Hlo Hlt Hold)) as R.
    eexists. constructor. { exact R. } all: proj; try assumption.
    apply (wire_data _ _ _ (fwd s)); [exact HW | apply incl_tl, incl_refl | left; reflexivity].
  - exists s. constructor; try assumption.
    apply (wire_data _ _ _ (fwd s)); [exact HW | apply incl_refl | rewrite Hq; discriminate].
Qed.

(* whatever the receiving endpoint emits is a sendack step *)
Lemma sim_ack : forall tr D asg nr rb s g, Sim tr D asg nr rb s -> N.to_nat (g_unack g) <= nr ->
  exists s', Sim (tr ++ [ES (negb D) g]) D asg nr rb s'.
Proof.
  intros tr D asg nr rb s g [H1 H2 H3 H4 H5 H6 HW] Hu. rewrite <- H5 in Hu.
  pose proof (reach_step _ _ _ H1 (s_sendack s _ Hu)) as R.
  eexists. constructor. { exact R. } all: proj; try assumption.
  apply wire_ack. exact HW.
Qed.

(* drain is a sequence of Move steps *)
Lemma sim_moves : forall tr D asg fuel nr rb nr' rb' rel s,
  drain fuel nr rb = (nr', rb', rel) -> Sim tr D asg nr rb s -> exists s', Sim tr D asg nr' rb' s'.
Proof.
  intros tr D asg. induction fuel as [|f IH]; intros nr rb nr' rb' rel s H HS; cbn [drain] in H.
  - injection H as <- <- <-. exists s. exact HS.
  - destruct (take nr rb) as [[c rb1]|] eqn:ET; [|injection H as <- <- <-; exists s; exact HS].
    destruct (drain f (S nr) rb1) as [[nr2 rb2] rel2] eqn:ED. injection H as <- <- <-.
    destruct (take_spec _ _ _ _ ET) as [Hin Hsub]. destruct HS as [H1 H2 H3 H4 H5 H6 HW].
    rewrite <- H5 in Hin, ED. apply H6 in Hin.
    pose proof (reach_step _ _ _ H1 (s_move s c Hin)) as R.
    eapply (IH _ _ _ _ _ _ ED). constructor. { exact R. } all: proj; try assumption; try reflexivity.
    intros x Hx. apply H6, Hsub, Hx.
Qed.

(* recvdata, then the moves *)
Lemma sim_deliver : forall tr D asg nr rb s g fuel nr' rb' rel k, Sim tr D asg nr rb s ->
  In g (emitted D tr) -> is_seq D (g_ty g) = true ->
  drain fuel nr ((N.to_nat (g_seq g), cont g) :: rb) = (nr', rb', rel) ->
  exists s', Sim (tr ++ [ER (negb D) k]) D asg nr' rb' s'.
Proof.
  intros tr D asg nr rb s g fuel nr' rb' rel k [H1 H2 H3 H4 H5 H6 HW] Hg Hq HD.
  pose proof (reach_step _ _ _ H1 (s_recvdata s _ _ (w_data _ _ _ _ _ HW g Hg Hq))) as R.
  eassert (HS1 : Sim tr D asg nr ((N.to_nat (g_seq g), cont g) :: rb) _).
  { constructor. { exact R. } all: proj; try assumption. apply incl_cons; [left; reflexivity | apply incl_tl, H6]. }
  destruct (sim_moves _ _ _ _ _ _ _ _ _ _ HD HS1) as [s' HS']. apply (sim_frame _ _ _ _ _ _ _ HS'); reflexivity.
Qed.

Lemma sim_read : forall tr D asg nr rb s b, Sim tr D asg nr rb s ->
  length (readb (negb D) tr) + length b <= length (bytes_of (firstn nr asg)) ->
  exists s', Sim (tr ++ [EA (negb D) b]) D asg nr rb s'.
Proof.
  intros tr D asg nr rb s b [H1 H2 H3 H4 H5 H6 HW] Hlen.
  rewrite <- H3, <- H5, <- (inv_got _ (reach_inv _ H1)), <- (w_read _ _ _ _ _ HW) in Hlen.
  pose proof (reach_step _ _ _ H1 (s_appread s _ Hlen)) as R.
  eexists. constructor. { exact R. } all: proj; try assumption.
  apply wire_read. exact HW.
Qed.

Definition SimA (tr : list event) (a : ast) (D : bool) (s : st) : Prop :=
  Sim tr D (e_asg (getE D a)) (e_nr (getE (negb D) a)) (e_rbuf (getE (negb D) a)) s.
(* an event at endpoint X is a move of its sender half in direction X and of its receiver half in direction negb X *)
Lemma acc_step_sim : forall tr a e a', AInv tr a -> (forall D, exists s, SimA tr a D s) -> acc_step a e = Acc a' ->
  forall D, exists s', SimA (tr ++ [e]) a' D s'.
Proof.
  intros tr a e a' HA HSim H D. destruct (HSim D) as [s Hs]. unfold SimA in *. apply acc_step_spec in H.
  (* each branch twice: X = D, then X = negb D; an event that emits nothing at either endpoint and reads nothing at
     endpoint negb D is no move of direction D: the cases listed are those left *)
  destruct H as [X b x -> | X g x pend' -> Hu Hq Hn Hst | X g x -> Hu Hold | X k g Hg
                | X k g x fuel nr' rb' rel -> Hg Hq HD | X b x av' -> Hst | Hfin];
    try (destruct (side_cases X D) as [-> | ->];
         rewrite ?negb_involutive in *; rewrite ?getE_setE_same, ?getE_setE_other by (destruct D; discriminate);
         cbn [e_asg e_nr e_rbuf]);
    try (apply (sim_frame _ _ _ _ _ _ _ Hs); reflexivity).
  - (* new at D *) eapply sim_new; eassumption.
  - (* new at negb D *) eapply sim_ack; [exact Hs | lia].
  - (* old at D *) eapply sim_old; eassumption.
  - (* old at negb D *) eapply sim_ack; [exact Hs | lia].
  - (* deliver at negb D *) rewrite (snd_emit _ _ _ _ _ (ai_snd _ _ HA D)) in Hg.
    eapply sim_deliver; [exact Hs | eapply nth_error_In; exact Hg | exact Hq | exact HD].
  - (* read at D: no move either, the endpoints compared are D and negb D *)
    apply (sim_frame _ _ _ _ _ _ _ Hs); [reflexivity | reflexivity | cbn; destruct D; reflexivity].
  - (* read at negb D *)
    pose proof (rcv_bytes _ _ _ _ _ _ (ai_rcv _ _ HA (negb D))) as R4. rewrite negb_involutive in R4.
    eapply sim_read; [exact Hs|]. rewrite R4, (strip_spec _ _ _ Hst), !app_length. lia.
Qed.

Lemma accept_sound : forall tr a, accept tr = inl a -> AInv tr a /\ forall D, exists s, SimA tr a D s.
Proof.
  intros tr a. apply (run_acc_invariant (fun tr a => AInv tr a /\ forall D, exists s, SimA tr a D s)) with (tr1 := []).
  - intros tr' b e b' [HA HSim] Hst. split; [eapply acc_step_inv | eapply acc_step_sim]; eassumption.
  - split; [apply a0_inv|]. intros D. exists (init 0). destruct D; apply sim_init.
Qed.

Lemma accept_inv : forall tr a, accept tr = inl a -> AInv tr a.
Proof. intros tr a H. apply (accept_sound tr a H). Qed.

Lemma accept_pev : forall tr a pre e post, accept tr = inl a -> tr = pre ++ e :: post -> Pev pre e.
Proof. intros tr a pre e post H E. exact (ai_pev _ _ (accept_inv _ _ H) _ _ _ E). Qed.

Lemma accept_ack_safe : forall tr a, accept tr = inl a ->
  forall pre X g post, tr = pre ++ ES X g :: post ->
  forall i, (N.of_nat i < g_unack g)%N -> delivered X pre i.
Proof. intros tr a H pre X g post E. apply (accept_pev _ _ _ _ _ H E). Qed.

Lemma cont_inj : forall g1 g2, cont g1 = cont g2 -> g_ty g1 = g_ty g2 /\ g_frag g1 = g_frag g2 /\ g_pay g1 = g_pay g2.
Proof. intros g1 g2 H. injection H as -> -> ->. auto. Qed.

Lemma accept_retx_same : forall tr a, accept tr = inl a ->
  forall X g1 g2, In g1 (emitted X tr) -> In g2 (emitted X tr) ->
  is_seq X (g_ty g1) = true -> is_seq X (g_ty g2) = true -> g_seq g1 = g_seq g2 ->
  g_ty g1 = g_ty g2 /\ g_frag g1 = g_frag g2 /\ g_pay g1 = g_pay g2.
Proof.
  intros tr a H X g1 g2 H1 H2 Q1 Q2 E. pose proof (snd_bound _ _ _ _ _ (ai_snd _ _ (accept_inv _ _ H) X)) as S3.
  pose proof (S3 _ H1 Q1) as N1. pose proof (S3 _ H2 Q2) as N2.
  apply cont_inj. congruence.
Qed.

Lemma accept_gapless : forall tr a, accept tr = inl a ->
  forall pre X g post, tr = pre ++ ES X g :: post -> is_seq X (g_ty g) = true ->
  forall i, (N.of_nat i < g_seq g)%N -> emitted_seq X pre i.
Proof. intros tr a H pre X g post E. apply (accept_pev _ _ _ _ _ H E). Qed.

Lemma lookup_asg : forall asg late k c, nth_error asg (N.to_nat k) = Some c -> lookup asg late k = Some c.
Proof.
  intros asg late k c H. unfold lookup. pose proof (nth_some_lt _ _ _ _ H) as Hlt.
  destruct (N.ltb_spec k (N.of_nat (length asg))); [exact H | lia].
Qed.

Lemma lookup_fresh : forall asg late k c, lookup asg late k = None -> lookup asg ((k, c) :: late) k = Some c.
Proof.
  intros asg late k c H. unfold lookup in *. destruct (N.ltb_spec k (N.of_nat (length asg))) as [Hlt | Hge].
  - destruct (nth_error asg (N.to_nat k)) eqn:E; [discriminate|]. apply nth_error_None in E. lia.
  - cbn [assoc]. rewrite N.eqb_refl. reflexivity.
Qed.

Lemma lookup_keep : forall asg late k c k0 c0, lookup asg late k = None -> lookup asg late k0 = Some c0 ->
  lookup asg ((k, c) :: late) k0 = Some c0.
Proof.
  intros asg late k c k0 c0 Hn Hs. destruct (N.eqb_spec k k0) as [-> | Hne]; [congruence|].
  unfold lookup in *. destruct (N.ltb_spec k0 (N.of_nat (length asg))); [exact Hs|].
  cbn [assoc]. apply N.eqb_neq in Hne. rewrite Hne. exact Hs.
Qed.

Lemma adv_spec : forall fuel nr buf j, (nr <= j < adv fuel nr buf)%N -> In j buf.
Proof.
  induction fuel as [|f IH]; intros nr buf j H; cbn [adv] in H; [lia|].
  destruct (existsb (N.eqb nr) buf) eqn:E; [|lia].
  destruct (N.eq_dec j nr) as [-> | Hne].
  - apply existsb_exists in E. destruct E as (x & Hx & Ex). apply N.eqb_eq in Ex. subst x. exact Hx.
  - apply (IH (N.succ nr)). lia.
Qed.

(* the part of Pev still checked after Close, said of the trace pre ++ p1 before the event *)
Definition PevL (pre p1 : list event) (e : event) : Prop :=
  match e with
  | ES X g => forall i, (N.of_nat i < g_unack g)%N -> delivered X (pre ++ p1) i
  | _ => True
  end.

(* endpoint X's record v after the events post that follow Close *)
Record LInv1 (a : ast) (pre post : list event) (X : bool) (v : ls1) : Prop := mkLInv1 {
  li_tab : forall g, In g (l_chk v) -> is_seq X (g_ty g) = true ->
             lookup (e_asg (getE X a)) (l_tab v) (g_seq g) = Some (cont g);
  li_cov : forall g, In g (emitted X post) -> is_seq X (g_ty g) = true -> g_ty g <> ty_close_req -> In g (l_chk v);
  li_emit : l_emit v = emitted X post;
  li_nr : forall i, i < N.to_nat (l_nr v) -> delivered X (pre ++ post) i;
  li_buf : forall j, In j (l_buf v) -> delivered X (pre ++ post) (N.to_nat j)
}.

Record LInv (a : ast) (pre post : list event) (l : lst) : Prop := mkLInv {
  lv_pev : each_split (PevL pre) post;
  lv_end : forall X, LInv1 a pre post X (getL X l)
}.

Lemma delivered_assoc : forall X pre post e i, delivered X (pre ++ post) i -> delivered X (pre ++ post ++ [e]) i.
Proof. intros. rewrite app_assoc. apply delivered_mono. assumption. Qed.

Lemma linv1_frame : forall a pre post X v e, LInv1 a pre post X v -> ev_emit X e = [] -> LInv1 a pre (post ++ [e]) X v.
Proof.
  intros a pre post X v e [T C E N B] He. constructor; auto using delivered_assoc.
  - intros g. rewrite emitted_snoc, He, app_nil_r. apply C.
  - rewrite emitted_snoc, He, app_nil_r. exact E.
Qed.

Lemma getL_setL_same : forall X v l, getL X (setL X v l) = v.
Proof. destruct X; reflexivity. Qed.
Lemma getL_setL_other : forall X v l, getL (negb X) (setL X v l) = getL (negb X) l.
Proof. destruct X; reflexivity. Qed.

Lemma linv_upd : forall a pre post l X e v', LInv a pre post l -> ev_side e = Some X -> PevL pre post e ->
  LInv1 a pre (post ++ [e]) X v' -> LInv a pre (post ++ [e]) (setL X v' l).
Proof.
  intros a pre post l X e v' [HH HI] Hside HP Hv. constructor; [apply each_split_snoc; assumption|].
  intros Y. destruct (side_cases Y X) as [-> | ->]; rewrite ?getL_setL_same, ?getL_setL_other; [exact Hv|].
  apply linv1_frame; [apply HI|]. apply ev_other. rewrite Hside. destruct X; discriminate.
Qed.

Lemma linv_frame : forall a pre post l e, LInv a pre post l -> PevL pre post e -> (forall X, ev_emit X e = []) ->
  LInv a pre (post ++ [e]) l.
Proof.
  intros a pre post l e [HH HI] HP He. constructor; [apply each_split_snoc; assumption|].
  intros X. apply linv1_frame; [apply HI | apply He].
Qed.

(* X emits g: its table and checked list may change as long as the bindings stay and g is checked unless exempt *)
Lemma linv_emit : forall a pre post l X g tab fl chk, LInv a pre post l ->
  (g_unack g <= l_nr (getL X l))%N ->
  (forall g0, In g0 chk -> is_seq X (g_ty g0) = true -> lookup (e_asg (getE X a)) tab (g_seq g0) = Some (cont g0)) ->
  incl (l_chk (getL X l)) chk -> (is_seq X (g_ty g) = true -> g_ty g <> ty_close_req -> In g chk) ->
  LInv a pre (post ++ [ES X g])
       (setL X (mkL1 tab fl chk (l_emit (getL X l) ++ [g]) (l_nr (getL X l)) (l_buf (getL X l))) l).
Proof.
  intros a pre post l X g tab fl chk HI Hack H1 H2 H3. pose proof (lv_end _ _ _ _ HI X) as [T C E N B].
  apply linv_upd; [exact HI | reflexivity | intros i Hi; apply N; lia|].
  constructor; cbn [l_tab l_chk l_emit l_nr l_buf]; auto using delivered_assoc.
  - intros g0 Hg0 Hs0 Hn0. rewrite emitted_own in Hg0. apply in_app_or in Hg0.
    destruct Hg0 as [Hg0 | [<- | []]]; [apply H2, C; assumption | apply H3; assumption].
  - rewrite emitted_own, E. reflexivity.
Qed.

Lemma linv_recv : forall a pre post l X k sq fuel, LInv a pre post l ->
  delivered X (pre ++ post ++ [ER X k]) (N.to_nat sq) ->
  LInv a pre (post ++ [ER X k])
       (setL X (mkL1 (l_tab (getL X l)) (l_flag (getL X l)) (l_chk (getL X l)) (l_emit (getL X l))
                     (adv fuel (l_nr (getL X l)) (sq :: l_buf (getL X l))) (sq :: l_buf (getL X l))) l).
Proof.
  intros a pre post l X k sq fuel HI Hnew. apply linv_upd; [exact HI | reflexivity | exact I|].
  destruct (linv1_frame _ _ _ _ _ (ER X k) (lv_end _ _ _ _ HI X) eq_refl) as [T C E N B].
  assert (Hbuf : forall j, In j (sq :: l_buf (getL X l)) -> delivered X (pre ++ post ++ [ER X k]) (N.to_nat j)).
  { intros j [<- | Hj]; [exact Hnew | apply B; exact Hj]. }
  constructor; cbn [l_tab l_chk l_emit l_nr l_buf]; auto.
  intros i Hi. destruct (Nat.lt_ge_cases i (N.to_nat (l_nr (getL X l)))) as [Hlt | Hge]; [apply N; exact Hlt|].
  rewrite <- (Nat2N.id i). apply Hbuf, (adv_spec fuel (l_nr (getL X l))). lia.
Qed.

Lemma late_step_inv : forall a pre post l e l', AInv pre a -> LInv a pre post l -> late_step a l e = Some l' ->
  LInv a pre (post ++ [e]) l'.
Proof.
  intros a pre post l e l' HA HI H. pose proof (lv_end _ _ _ _ HI) as HL.
  destruct e as [X b | X g | X k | X b | ]; cbn [late_step] in H;
    try (injection H as <-; apply linv_frame; [exact HI | exact I | reflexivity]).
  - (* ES *)
    destruct (N.leb_spec (g_unack g) (l_nr (getL X l))) as [Hack | Hack]; cbn [negb] in H; [|discriminate].
    pose proof (li_tab _ _ _ _ _ (HL X)) as T.
    destruct (is_seq X (g_ty g)) eqn:Hseq.
    + destruct (l_flag (getL X l) && N.eqb (g_ty g) ty_close_req) eqn:Hex.
      * injection H as <-. apply linv_emit; [exact HI | exact Hack | exact T | apply incl_refl|].
        intros _ Hne. apply andb_true_iff in Hex. destruct Hex as [_ Hex]. apply N.eqb_eq in Hex. contradiction.
      * destruct (lookup (e_asg (getE X a)) (l_tab (getL X l)) (g_seq g)) as [c|] eqn:Hl.
        -- destruct (content_eqb c (cont g)) eqn:Hc; [|discriminate]. apply content_eqb_eq in Hc. subst c. injection H as <-.
           apply linv_emit; [exact HI | exact Hack | | apply incl_tl, incl_refl | intros; left; reflexivity].
           intros g0 [<- | Hg0] Hs0; [exact Hl | apply T; assumption].
        -- injection H as <-.
           apply linv_emit; [exact HI | exact Hack | | apply incl_tl, incl_refl | intros; left; reflexivity].
           intros g0 [<- | Hg0] Hs0; [apply lookup_fresh; exact Hl | eapply lookup_keep; [exact Hl | apply T; assumption]].
    + destruct (is_ack X (g_ty g)); [|discriminate]. injection H as <-.
      apply linv_emit; [exact HI | exact Hack | exact T | apply incl_refl | congruence].
  - (* ER *)
    (* the datagram is the k-th of those emitted before and after Close *)
    rewrite nth_error_app_if, (snd_emit _ _ _ _ _ (ai_snd _ _ HA (negb X))), (li_emit _ _ _ _ _ (HL (negb X))),
      <- emitted_app in H.
    destruct (N.ltb k _); [|discriminate].
    destruct (nth_error (emitted _ _) _) as [g|] eqn:Hg; [|discriminate].
    destruct (is_seq (negb X) (g_ty g)) eqn:Hseq;
      [|injection H as <-; apply linv_frame; [exact HI | exact I | reflexivity]].
    injection H as <-. apply (linv_recv _ _ _ _ _ _ _ (S (length (g_seq g :: l_buf (getL X l))))); [exact HI|].
    exists (pre ++ post), k, [], g. rewrite app_assoc. auto.
Qed.

Lemma late_run_invariant : forall a (P : list event -> lst -> Prop),
  (forall post l e l', P post l -> late_step a l e = Some l' -> P (post ++ [e]) l') ->
  forall post2 post1 l l', P post1 l -> late_run a l post2 = Some l' -> P (post1 ++ post2) l'.
Proof.
  intros a P Hstep. induction post2 as [|e t IH]; intros post1 l l' HI H; cbn [late_run] in H.
  - injection H as <-. rewrite app_nil_r. exact HI.
  - destruct (late_step a l e) as [l1|] eqn:E; [|discriminate].
    change (post1 ++ e :: t) with (post1 ++ [e] ++ t). rewrite app_assoc. eapply IH; [|exact H]. eapply Hstep; eassumption.
Qed.

Lemma late_init_inv : forall a pre, AInv pre a -> LInv a pre [] (late_init a).
Proof.
  intros a pre HA. constructor; [apply each_split_nil|]. intros X. pose proof (ai_rcv _ _ HA X) as Hr.
  replace (getL X (late_init a)) with (late_init1 (getE X a)) by (destruct X; reflexivity).
  constructor; cbn [late_init1 l_tab l_chk l_emit l_nr l_buf]; rewrite ?app_nil_r.
  - intros g [].
  - intros g [].
  - reflexivity.
  - intros i Hi. apply (rcv_below _ _ _ _ _ _ Hr). rewrite Nat2N.id in Hi. exact Hi.
  - intros j Hj. apply in_map_iff in Hj. destruct Hj as ([i c] & <- & Hic). cbn [fst]. rewrite Nat2N.id.
    apply (rcv_buf _ _ _ _ _ _ Hr _ _ Hic).
Qed.

Lemma late_final_inv : forall pre post l, late_final pre post = Some l -> exists a, accept pre = inl a /\ LInv a pre post l.
Proof.
  intros pre post l H. unfold late_final in H. destruct (accept pre) as [a | r] eqn:Ea; [|discriminate].
  exists a. split; [reflexivity|]. pose proof (accept_inv _ _ Ea) as HA.
  apply (late_run_invariant a (LInv a pre)) with (post1 := []) (l := late_init a); [|apply late_init_inv; exact HA | exact H].
  intros p l0 e l1 HI Hst. eapply late_step_inv; eassumption.
Qed.

Record WInv (s : wst) : Prop := mkWInv {
  wi_reach : reach (base s);
  wi_win : win (base s) = swin (base s) (cwnd s) (rwnd s);
  wi_cwnd : minWindow <= cwnd s
}.

Lemma minWindow_pos : 0 < minWindow.
Proof. unfold minWindow, C02_minWindowSize. lia. Qed.

Lemma winv_init : forall cw rw rs, minWindow <= cw -> WInv (winit cw rw rs).
Proof.
  intros cw rw rs H. constructor; [apply reach_init | | exact H]. unfold swin. cbn. rewrite Nat.sub_0_r. reflexivity.
Qed.

Lemma wstep_inv : forall s l s', WInv s -> wstep s l s' -> WInv s'.
Proof.
  intros s l s' [HR HW HC] H. destruct H; constructor; cbn [base cwnd rwnd]; try assumption; try reflexivity.
  - (* base *) exact (reach_step _ _ _ (reach_step _ _ _ HR H) (s_setwin _ _)).
  - (* cwnd *) exact (reach_step _ _ _ HR (s_setwin _ _)).
  - (* send ack *) exact (reach_step _ _ _ HR H).
  - (* send ack: wi_win *) inversion H; subst. exact HW.
  - (* recv ack *) exact (reach_step _ _ _ (reach_step _ _ _ HR H0) (s_setwin _ _)).
Qed.
Lemma wreach_inv : forall s, wreach s -> WInv s.
Proof. intros s H. induction H; [apply winv_init; assumption | eapply wstep_inv; eauto]. Qed.

Inductive wrun : wst -> list wlabel -> wst -> Prop :=
| wrun_nil : forall s, wrun s [] s
| wrun_cons : forall s l s1 ls s2, wstep s l s1 -> wrun s1 ls s2 -> wrun s (l :: ls) s2.

Lemma wrun_app : forall s l1 s1 l2 s2, wrun s l1 s1 -> wrun s1 l2 s2 -> wrun s (l1 ++ l2) s2.
Proof. intros s l1 s1 l2 s2 H. induction H; intros H2; [exact H2|]. cbn. econstructor; eauto. Qed.

Lemma window_reopen_enabled : forall s, wreach s ->
  exists s1 s2,
    wstep s (WSendAck (next_recv (base s))) s1 /\ wstep s1 (WRecvAck (next_recv (base s)) (rspace s)) s2 /\
    rwnd s2 = rspace s /\ cwnd s2 = cwnd s /\ rspace s2 = rspace s /\
    assigned (base s2) = assigned (base s) /\ next_recv (base s2) = next_recv (base s) /\ sent_hi (base s2) = sent_hi (base s) /\
    (next_recv (base s) = sent_hi (base s) -> win (base s2) = Nat.min (cwnd s) (rspace s)) /\
    (next_recv (base s) = sent_hi (base s) -> 0 < rspace s -> 0 < win (base s2)).
Proof.
  intros s HW. pose proof (wi_cwnd _ (wreach_inv _ HW)) as HC.
  eexists _, _. split; [apply ws_sendack, s_sendack, le_n|].
  split. { apply ws_recvack; [left; reflexivity | eapply s_recvack; left; reflexivity]. }
  cbn. unfold swin. cbn. repeat split.
  - (* nothing is in flight once the ack is processed *) intros E. f_equal. lia.
  - intros E Hs. pose proof minWindow_pos. lia.
Qed.

(* the windowed counterpart of recv_move: every base step recomputes [win], so the second step of a run of the basic
   system does not start from the state the first windowed step leads to, and the two steps are taken here *)
Lemma wrecv_move : forall t c, In (next_recv (base t), c) (fwd (base t)) ->
  exists t', wrun t [WBase (LRecvData (next_recv (base t)) c); WBase LMove] t' /\
             next_recv (base t') = S (next_recv (base t)).
Proof.
  intros t c Hin. eexists. split.
  - eapply wrun_cons; [apply ws_base; [apply s_recvdata; exact Hin | reflexivity..]|].
    eapply wrun_cons; [apply ws_base; [apply (s_move _ c); left; reflexivity | reflexivity..] | apply wrun_nil].
  - reflexivity.
Qed.

Lemma wdeliver : forall t, reach (base t) -> next_recv (base t) < length (assigned (base t)) ->
  (next_recv (base t) < sent_hi (base t) \/ 0 < win (base t)) ->
  exists ls t', wrun t ls t' /\ length ls = 3 /\ next_recv (base t') = S (next_recv (base t)).
Proof.
  intros t HR Hund Hen.
  destruct (transmit_awaited _ HR Hund Hen) as (l & b1 & c & Hl & _ & H1 & Hin & E1 & _).
  set (t1 := mkW (set_win b1 (swin b1 (cwnd t) (rwnd t))) (cwnd t) (rwnd t) (rspace t) (backw t)).
  assert (W1 : wstep t (WBase l) t1) by (apply ws_base; [exact H1 | destruct Hl as [-> | ->]; reflexivity ..]).
  rewrite <- E1 in Hin |- *. destruct (wrecv_move t1 c Hin) as (t' & R & E').
  eexists (WBase l :: _), t'. split; [econstructor; eassumption | split; [reflexivity | exact E']].
Qed.

Lemma progress_by_ack : forall s, wreach s -> next_recv (base s) < length (assigned (base s)) -> 0 < rspace s ->
  exists ls s', wrun s ls s' /\ length ls <= 5 /\ next_recv (base s') = S (next_recv (base s)).
Proof.
  intros s HW Hund Hsp. pose proof (wi_reach _ (wreach_inv _ HW)) as HR.
  destruct (Nat.lt_ge_cases (next_recv (base s)) (sent_hi (base s))) as [Hlt | Hge].
  - destruct (wdeliver s HR Hund (or_introl Hlt)) as (ls & t' & R & L & N).
    exists ls, t'. split; [exact R | split; [lia | exact N]].
  - (* everything sent is delivered: an ack that carries the free space reopens the window *)
    pose proof (inv_nr_hi _ (reach_inv _ HR)) as I6. assert (E : next_recv (base s) = sent_hi (base s)) by lia.
    destruct (window_reopen_enabled s HW) as (s1 & s2 & W1 & W2 & _ & _ & _ & A1 & A2 & _ & _ & A5).
    assert (HW2 : wreach s2) by (eapply wreach_step; [eapply wreach_step; [exact HW | exact W1] | exact W2]).
    rewrite <- A1, <- A2 in Hund. rewrite <- A2.
    destruct (wdeliver s2 (wi_reach _ (wreach_inv _ HW2)) Hund (or_intror (A5 E Hsp))) as (ls & t' & R & L & N).
    exists (WSendAck (next_recv (base s)) :: WRecvAck (next_recv (base s)) (rspace s) :: ls), t'.
    split; [econstructor; [exact W1|]; econstructor; [exact W2 | exact R]|]. split; [cbn [length]; lia | exact N].
Qed.

Lemma capN_pos : 0 < capN.
Proof. unfold capN, C02_segmentTreeCapacity. lia. Qed.
(* capN is 4096 in unary once computed: no cbn or lia below may unfold it (minWindow and txCountLimit are small) *)
Opaque capN.

(* no invariant is needed: the window test itself guarantees a free slot in recvQueue *)
Lemma input_never_blocks : forall r d, snd (input_data r d) <> InBlocked.
Proof.
  intros r d. unfold input_data, input_body, rwindow.
  destruct (Nat.eqb_spec (capN - length (r_buf r) - r_queue r) 0) as [E | E]; [cbn; discriminate|].
  destruct (Nat.leb_spec capN (length (r_buf r))); [cbn; discriminate|].
  cbn [r_queue]. destruct (Nat.leb_spec capN (r_queue r)); [lia | cbn; discriminate].
Qed.

Lemma input_full_window_drops : forall r d, capN <= length (r_buf r) + r_queue r -> input_data r d = (r, InDropped).
Proof.
  intros r d H. unfold input_data, rwindow. replace (capN - length (r_buf r) - r_queue r) with 0 by lia. reflexivity.
Qed.

Lemma move_loop_queue : forall fuel r, r_queue r <= capN -> r_queue (move_loop fuel r) <= capN.
Proof.
  induction fuel as [|f IH]; intros r H; cbn [move_loop]; [exact H|].
  destruct (Nat.leb_spec capN (r_queue r)); [exact H|].
  destruct (take (r_next r) (r_buf r)) as [[c rb']|]; [apply IH; cbn [r_queue]; lia | cbn [r_queue]; lia].
Qed.
Lemma input_queue_bounded : forall r d, r_queue r <= capN -> r_queue (fst (input_data r d)) <= capN.
Proof.
  intros r d H. unfold input_data, input_body. destruct (Nat.eqb (rwindow r) 0); [exact H|].
  destruct (Nat.leb capN (length (r_buf r))); [exact H|]. cbn [r_queue].
  destruct (Nat.leb capN (r_queue r)); [exact H|]. cbn [fst]. apply move_loop_queue. exact H.
Qed.

Lemma queue_frags_spec : forall k cs ns, let '(ns', q) := queue_frags ns cs k in
  ns' = ns + length q /\ map fst q = seq ns (length q) /\ map snd q = firstn k cs.
Proof.
  induction k as [|k IH]; intros cs ns.
  - destruct cs; cbn; repeat split; lia.
  - destruct cs as [|c cs]; [cbn; repeat split; lia|]. cbn [queue_frags].
    specialize (IH cs (S ns)). destruct (queue_frags (S ns) cs k) as [ns' q]. destruct IH as (A & B & C).
    cbn [length map seq fst snd firstn]. rewrite B, C. repeat split; lia.
Qed.

(* a reachable LTS state after a retransmission, a duplicate delivery, deliveries out of order, an ack and a read;
   mkSt assigned una sent_hi win fwd back next_recv rbuf got rd lost *)
Definition cA := mkC 6 1 [1%N; 2%N].
Definition cB := mkC 6 0 [3%N].
Definition ex_state : st :=
  mkSt [cA; cB] 1 2 5 [(0, cA); (1, cB); (0, cA)] [(1, 1)] 2 [(0, cA); (1, cB); (0, cA)] [cA; cB] 3 0.
Lemma ex_state_reach : reach ex_state.
Proof.
  eapply reach_run; [apply (reach_init 5)|].
  eapply run_cons; [apply s_write|]. cbn.
  eapply run_cons; [apply s_write|]. cbn.
  eapply run_cons; [apply (s_sendnew _ cA); cbn; [reflexivity | lia]|]. cbn.
  eapply run_cons; [apply (s_sendnew _ cB); cbn; [reflexivity | lia]|]. cbn.
  eapply run_cons; [apply (s_retx _ 0 cA); cbn; [lia | lia | reflexivity]|]. cbn.
  eapply run_cons; [apply (s_recvdata _ 0 cA); cbn; auto|]. cbn.
  eapply run_cons; [apply (s_recvdata _ 1 cB); cbn; auto|]. cbn.
  eapply run_cons; [apply (s_move _ cA); cbn; auto|]. cbn.
  eapply run_cons; [apply (s_sendack _ 1); cbn; lia|]. cbn.
  eapply run_cons; [apply (s_recvdata _ 0 cA); cbn; auto|]. cbn.
  eapply run_cons; [apply (s_move _ cB); cbn; auto|]. cbn.
  eapply run_cons; [apply (s_recvack _ 1 1); cbn; auto|]. cbn.
  eapply run_cons; [apply (s_appread _ 3); cbn; lia|]. cbn.
  apply run_nil.
Qed.

(* an accepted trace: first write inside the open request, the server's data overtakes its open response,
   a retransmission, a duplicate delivery, completion.  mkDg ty seq unack win frag pay; the types are those of
   gen/Consts.v: 2/3 open request/response, 4/5 close request/response, 6/7 data client->server/server->client,
   8/9 ack client->server/server->client *)
Definition ex_trace : list event :=
  [ EW false [1;2;3]%N;
    ES false (mkDg 2 0 0 0 0 [1;2;3]%N);
    ER true 0%N;
    ES true (mkDg 3 0 0 0 0 []);
    EA true [1;2;3]%N;
    EW true [9]%N;
    ES true (mkDg 7 1 1 4095 0 [9]%N);
    ES true (mkDg 7 1 1 4095 0 [9]%N);
    ER false 2%N;
    ER false 0%N;
    ER false 1%N;
    EA false [9]%N;
    ES false (mkDg 8 0 2 4096 0 []);
    ER true 1%N ].
Lemma ex_trace_accepted : accepts (ex_trace ++ [EF]) = true.
Proof. vm_compute. reflexivity. Qed.
(* the guards bite: an ack one ahead, a retransmission with a changed payload, a skipped number, a wrong byte *)
Lemma ex_rejects :
  accept [ES false (mkDg 8 0 1 0 0 [])] = inr (0%N, rj_ack) /\
  accept [EW false [1;2]%N; ES false (mkDg 2 0 0 0 0 [1;2]%N); ES false (mkDg 2 0 0 0 0 [2]%N)] = inr (2%N, rj_retx) /\
  accept [EW false [1;2]%N; ES false (mkDg 2 0 0 0 0 []); ES false (mkDg 6 2 0 0 0 [1;2]%N)] = inr (2%N, rj_gap) /\
  accept [EW false [1;2]%N; ES false (mkDg 2 0 0 0 0 [1;3]%N)] = inr (1%N, rj_payload) /\
  accept [EW false [1;2]%N; ES false (mkDg 2 0 0 0 0 [1;2]%N); ER true 0%N; EA true [1;2;2]%N] = inr (3%N, rj_read).
Proof. vm_compute. repeat split; reflexivity. Qed.

(* a session up to Close: one segment each way, then a data segment numbered 1 of the client *)
Definition ex_pre : list event :=
  [ EW false [1;2;3]%N; ES false (mkDg 2 0 0 0 0 [1;2;3]%N); ER true 0%N; ES true (mkDg 3 0 0 0 0 []);
    EW false [7]%N; ES false (mkDg 6 1 0 4096 0 [7]%N) ].
