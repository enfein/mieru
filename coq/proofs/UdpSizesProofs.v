(* C02: the receive buffers observed by the C02 probe hold every datagram Sizes lets a peer send (Sizes.emitted; its
   link to UdpProto is SizesCrossProofs.every_segment_kind_within_mtu). *)
From Coq Require Import ZArith Lia List.
From M Require Import gen.Consts model.Sizes proofs.SizesProofs.
Import ListNotations.
Open Scope Z_scope.

(* the receive buffer of PacketUnderlay.readOneSegment as observed by the behavioural probe (consts_c02.go) for
   underlays whose LOCAL mtu is 1280, 1400, 1500, client and server *)
Definition read_buf_lens : list Z :=
  [C02_readBufLen_client_mtu1280; C02_readBufLen_client_mtu1400; C02_readBufLen_client_mtu1500;
   C02_readBufLen_server_mtu1280; C02_readBufLen_server_mtu1400; C02_readBufLen_server_mtu1500].

(* the obligation on the regenerated constants: each of the six observed buffers holds the largest legal datagram *)
Lemma read_buf_covers_max_mtu : forall b, In b read_buf_lens -> C14_ServerMaxMTU <= b.
Proof.
  intros b H. unfold read_buf_lens in H. cbn in H.
  repeat (destruct H as [<- | H]; [vm_compute; discriminate|]). contradiction.
Qed.

Lemma peer_mtu_independent : forall peer_mtu mode is_client first n cfg_mid cfg_end s p1 p2 b,
  mtu_ok peer_mtu -> mode_ok mode -> 0 <= n ->
  emitted is_client first peer_mtu C14_TransportPacket mode n s ->
  draws_ok peer_mtu C14_TransportPacket cfg_mid cfg_end s p1 p2 ->
  In b read_buf_lens -> dgram_len s p1 p2 <= b.
Proof.
  intros peer_mtu mode is_client first n c1 c2 s p1 p2 b Hm Hmode Hn He Hd Hb.
  pose proof (fits_within_mtu _ _ _ _ _ _ (proj1 (emitted_fits _ _ _ _ _ _ Hm Hmode Hn He)) Hd) as H1.
  pose proof (read_buf_covers_max_mtu _ Hb) as H2. unfold mtu_ok in Hm. lia.
Qed.

(* a buffer sized by a smaller local MTU would not do: a peer with the maximal MTU sends datagrams of exactly that size *)
Lemma local_mtu_buffer_too_small : exists s p1 p2,
  emitted true false C14_ServerMaxMTU C14_TransportPacket C14_ModeOff 4000 s /\
  draws_ok C14_ServerMaxMTU C14_TransportPacket None None s p1 p2 /\ dgram_len s p1 p2 > C14_ServerMinMTU.
Proof.
  exists (mkSeg KData 2 1412 0 1412), 0, 0.
  split; [|split].
  - left. vm_compute. auto.
  - unfold draws_ok. vm_compute. repeat split; discriminate.
  - vm_compute. reflexivity.
Qed.
