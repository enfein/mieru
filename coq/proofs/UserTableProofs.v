(* Proofs about model/UserTable.v (C05, management events). *)
From Coq Require Import ZArith List Lia.
From M Require Import model.ServerFront proofs.ServerFrontProofs model.UserTable.
Import ListNotations.

Lemma insert_entry_in (e x : entry) (l : list entry) : In x (insert_entry e l) <-> x = e \/ In x l.
Proof.
  induction l as [|y r IH]; simpl; [intuition|].
  destruct (entry_ltb e y); simpl; [intuition|]. rewrite IH. intuition.
Qed.

Lemma sort_entries_in (es : list entry) (x : entry) : In x (sort_entries es) <-> In x es.
Proof.
  induction es as [|e r IH]; simpl; [tauto|].
  rewrite insert_entry_in, IH. intuition.
Qed.

Lemma two_members {A : Type} (a b : A) (l : list A) : In a l -> In b l -> a <> b -> (2 <= length l)%nat.
Proof. destruct l as [|x [|y l]]; simpl; [tauto | intuition congruence | lia]. Qed.

Section CompileProofs.
  Variable hashpw : bytes -> bytes -> bytes.
  Notation compile := (compile_users hashpw).
  Notation adm := (admitted hashpw).
  Notation cred_of := (build_credential hashpw).

  Lemma number_in (l : list (bytes * bytes)) : forall i c,
    In c (number i l) -> In (c_name c, c_cred c) l.
  Proof.
    induction l as [|[n k] r IH]; intros i c H; simpl in *; [contradiction|].
    destruct H as [<-|H]; [left; reflexivity | right; exact (IH _ _ H)].
  Qed.

  Lemma compiled_from_entry (es : list entry) (c : cuser) :
    In c (compile es) -> exists e, In e es /\ adm es e = Some (c_cred c) /\ c_name c = name_of e.
  Proof.
    unfold compile_users. intros H. apply number_in in H. apply in_flat_map in H.
    destruct H as [e [He Hc]]. apply (proj1 (sort_entries_in es e)) in He.
    destruct (adm es e) as [k|] eqn:A; [|contradiction].
    destruct Hc as [[= Hn <-]|[]]. exists e. split; [exact He|]. split; [exact A | symmetry; exact Hn].
  Qed.

  (* the secret buildCredential asks for: a hexadecimal hashed password of CredentialLen bytes, or else (hashed
     password empty) a non-empty password *)
  Definition has_secret (e : entry) (cred : bytes) : Prop :=
    (e_hashed e <> [] /\ hex_decode (e_hashed e) = Some cred /\ length cred = cred_len) \/
    (e_hashed e = [] /\ e_password e <> [] /\ cred = hashpw (e_password e) (e_name e)).

  Lemma build_credential_secret (e : entry) (cred : bytes) :
    cred_of e = Some cred -> e_present e = true /\ has_secret e cred.
  Proof.
    unfold build_credential, has_secret. destruct (e_present e); simpl; [|discriminate].
    destruct (e_hashed e) as [|h0 hr] eqn:EH.
    - destruct (e_password e) as [|p0 pr] eqn:EP; [discriminate|].
      intros H; inversion H; subst. split; [reflexivity|]. right. repeat split; congruence.
    - destruct (hex_decode (h0 :: hr)) as [d|] eqn:HD; [|discriminate].
      destruct (Nat.eqb (length d) cred_len) eqn:L; [|discriminate].
      intros H; inversion H; subst. apply Nat.eqb_eq in L. split; [reflexivity|]. left. repeat split; auto. discriminate.
  Qed.

  Lemma admitted_inv (es : list entry) (e : entry) (cred : bytes) :
    adm es e = Some cred ->
    e_present e = true /\ e_name e <> [] /\ (length (e_name e) <= max_name_len)%nat /\
    (count_name (e_name e) es <= 1)%nat /\ has_secret e cred.
  Proof.
    unfold admitted. destruct (name_of e) as [|n0 nr] eqn:N; [discriminate|].
    destruct (Nat.ltb 1 (count_name (n0 :: nr) es)) eqn:C; [discriminate|].
    destruct (Nat.ltb max_name_len (length (n0 :: nr))) eqn:L; [discriminate|].
    intros H. apply build_credential_secret in H. destruct H as [P S].
    unfold name_of in N. rewrite P in N. rewrite N.
    apply Nat.ltb_ge in C. apply Nat.ltb_ge in L. repeat split; auto. discriminate.
  Qed.

  Lemma no_secret_not_admitted (es : list entry) (e : entry) :
    e_password e = [] -> e_hashed e = [] -> adm es e = None.
  Proof.
    intros P H. destruct (adm es e) as [c|] eqn:A; [|reflexivity].
    apply admitted_inv in A. destruct A as [_ [_ [_ [_ [[Q _]|[_ [Q _]]]]]]]; congruence.
  Qed.

  Lemma shared_name_not_admitted (es : list entry) (e1 e2 e : entry) :
    In e1 es -> In e2 es -> e1 <> e2 -> name_of e1 = name_of e2 -> name_of e = name_of e1 -> adm es e = None.
  Proof.
    intros I1 I2 NE EQ N. destruct (adm es e) as [c|] eqn:A; [exfalso|reflexivity].
    apply admitted_inv in A. destruct A as [P [_ [_ [C _]]]].
    assert (C2 : (2 <= count_name (name_of e1) es)%nat).
    { apply (two_members e1 e2); [| |exact NE]; apply filter_In; split; auto; apply addr_eqb_eq; auto. }
    unfold name_of in N at 1. rewrite P in N. rewrite N in C. lia.
  Qed.

  Lemma no_secret_no_credential (es : list entry) (n : bytes) :
    (forall e, In e es -> name_of e = n -> e_password e = [] /\ e_hashed e = []) ->
    forall c, In c (compile es) -> c_name c <> n.
  Proof.
    intros NS c H E. apply compiled_from_entry in H. destruct H as [e [I [A N]]].
    rewrite N in E. destruct (NS e I E) as [P Q].
    rewrite (no_secret_not_admitted es e P Q) in A. discriminate.
  Qed.

  Lemma published_last (init : list entry) (h : list (list entry)) (l : list entry) :
    published hashpw init (h ++ [l]) = compile l.
  Proof. unfold published. rewrite last_last. reflexivity. Qed.

  Lemma published_none (init : list entry) : published hashpw init [] = compile init.
  Proof. reflexivity. Qed.

  Lemma compile_nil : compile [] = [].
  Proof. reflexivity. Qed.
End CompileProofs.

Section AfterReload.
  Variable K : Type.
  Variable hashpw : bytes -> bytes -> bytes.
  Variable kdf : bytes -> K.                                  (* credential -> cipher key (of the current time slot) *)
  Variable seal : K -> bytes -> bytes -> bytes.               (* key, nonce, metadata -> the 72-byte header *)
  Variable open_k : K -> bytes -> option bytes.

  (* key separation of the AEAD: what was sealed under one key opens under no other key *)
  Hypothesis open_other_key_none : forall k k' n m, k' <> k -> open_k k' (seal k n m) = None.

  Variable init : list entry.
  Variable h : list (list entry).
  Notation users := (published hashpw init h).

  (* sealed with a credential whose key is the key of no user of the generation in force *)
  Definition foreign_header (hdr : bytes) : Prop :=
    exists cred n m, hdr = seal (kdf cred) n m /\ forall u, In u users -> kdf (c_cred u) <> kdf cred.

  Lemma foreign_no_key_opens (hdr : bytes) :
    foreign_header hdr -> forall u, In u users -> open_k (kdf (c_cred u)) hdr = None.
  Proof. intros [cred [n [m [-> F]]]] u I. apply open_other_key_none. exact (F u I). Qed.
End AfterReload.

(* [h0] stands for cipher.HashPassword: password || 0x00 || name, unhashed *)
Module ToyT.
  Local Open Scope nat_scope.
  Definition s (l : list nat) : bytes := map N.of_nat l.
  Definition h0 (p n : bytes) : bytes := p ++ [0%N] ++ n.
  Definition alice := mkEntry (s [97]) (s [97]) true (s [1; 2]) [].
  Definition victim := mkEntry (s [118]) (s [118]) true (s [3]) [].
  Definition nopw := mkEntry (s [110]) (s [110]) true [] [].
  Definition dup1 := mkEntry (s [1]) (s [100]) true (s [5]) [].
  Definition dup2 := mkEntry (s [2]) (s [100]) true (s [6]) [].
  Example ex_history :
    map c_name (published h0 [alice; victim] [[alice]; [alice; victim]; [alice; nopw; dup1; dup2]]) = [s [97]] /\
    map c_name (published h0 [alice; victim] []) = [s [97]; s [118]] /\
    published h0 [alice; victim] [[alice]; []] = [].
  Proof. vm_compute. auto. Qed.
  Example ex_hex : hex_decode (s [48; 102; 65; 57]) = Some [15%N; 169%N] /\ hex_decode (s [48]) = None /\ hex_decode (s [122; 122]) = None.
  Proof. vm_compute. auto. Qed.
End ToyT.
