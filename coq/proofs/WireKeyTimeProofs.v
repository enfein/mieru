(* Tie between model/Wire.v (which key a UDP server session seals its replies with) and model/KeyTime.v
   (which keys a peer that derives its key from its clock can open), property C09. *)
From Coq Require Import ZArith NArith List Lia.
From M Require Import gen.Consts model.KeyTime proofs.KeyTimeProofs model.Wire proofs.WireProofs.
Import ListNotations.
Local Open Scope Z_scope.

(* Keys are named by their time salt (unix seconds of the rounded slot): for one user the key is a function of the
   salt (derive_key).  The client seals its datagram number i at instant t_i (unix ns) with the key of epoch(t_i);
   the server session has received the datagrams sent at ts ++ [t].  The first half holds by construction of
   Wire.sess_input, which mirrors Session.input storing the block of every segment; the second is the content. *)
Lemma udp_reply_key_follows_peer (st : option Z) (ts : list Z) (t d : Z) :
  Z.abs d <= 120 * NS ->
  sess_run Z st (map (epoch KeyRefreshInterval_ns) (ts ++ [t])) = Some (epoch KeyRefreshInterval_ns t) /\
  In (epoch KeyRefreshInterval_ns t) (slots KeyRefreshInterval_ns (t + d)).
Proof.
  intros Hd. split.
  - rewrite map_app. cbn [map]. apply sess_run_last.
  - apply key_common. replace (t + d - t) with d by lia. exact Hd.
Qed.

Lemma udp_first_key_goes_stale (t0 t : Z) :
  era t0 -> era t -> 240 * NS <= Z.abs (t - t0) ->
  ~ In (epoch KeyRefreshInterval_ns t0) (slots KeyRefreshInterval_ns t).
Proof.
  intros _ _ H. apply key_stale. unfold S60. lia.
Qed.

Example ex_reply_key : sess_run Z None (map (epoch KeyRefreshInterval_ns) [1700000000 * NS; 1700000130 * NS; 1700000400 * NS]) = Some 1700000400.
Proof. vm_compute. reflexivity. Qed.
