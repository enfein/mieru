(* Proofs about model/Wire.v (property C09). *)
From Coq Require Import NArith ZArith List Bool Lia.
From Coq Require Import ZifyN ZifyBool.
From M Require Import gen.Consts model.Wire.
Import ListNotations.
Local Open Scope N_scope.

(* gives [lia] division and remainder by constants *)
Local Ltac Zify.zify_post_hook ::= Z.div_mod_to_equations.

Lemma consts_sizes :
  MetadataLength = 32 /\ MaxSessionOpenPayload = 1024 /\ NonceSize = 24 /\ TagOverhead = 16 /\
  C09_KeyLen = 32%Z /\ HintInputLen = 16 /\ HintLen = 4 /\ maxPDU = 32768 /\ chunkLen = 8.
Proof. repeat split; reflexivity. Qed.

Lemma consts_keygen : C09_KeyIter = 64%Z /\ C09_KeyRefreshInterval_s = 120%Z.
Proof. split; reflexivity. Qed.

Lemma consts_types :
  T_openSessionRequest = 2 /\ T_openSessionResponse = 3 /\ T_closeSessionRequest = 4 /\ T_closeSessionResponse = 5 /\
  T_dataClientToServer = 6 /\ T_dataServerToClient = 7 /\ T_ackClientToServer = 8 /\ T_ackServerToClient = 9 /\
  T_dataClientToServerLE = 10 /\ T_dataServerToClientLE = 11.
Proof. repeat split; reflexivity. Qed.

Lemma consts_overheads :
  Z.to_N C09_streamOverhead = MetadataLength + 2 * TagOverhead /\
  Z.to_N C09_packetOverhead = NonceSize + MetadataLength + 2 * TagOverhead /\
  Z.to_N C09_packetNonHeaderPosition = NonceSize + MetadataLength + TagOverhead.
Proof. repeat split; reflexivity. Qed.

(* mode table of the document: mode 1..4 carry 4..7 source bytes, half mask with 16..28 ones; every other mode is invalid *)
Lemma consts_modes :
  map mode_source_bytes [0; 1; 2; 3; 4; 5; 6; 7] = [0; 4; 5; 6; 7; 0; 0; 0] /\
  map mode_mask_ones [0; 1; 2; 3; 4; 5; 6; 7] = [0; 16; 20; 24; 28; 0; 0; 0] /\
  (forall m, 8 <= m -> mode_source_bytes m = 0).
Proof.
  repeat split; try reflexivity.
  intros m Hm. unfold mode_source_bytes.
  rewrite nth_overflow; [reflexivity|]. change (length C09_modeSourceBytes) with 8%nat. lia.
Qed.

(* the n low base-256 digits of v, least significant first: be16 / be32 are two and four of them, reversed *)
Fixpoint le_bytes (n : nat) (v : N) : list N :=
  match n with O => [] | S n' => v mod 256 :: le_bytes n' (v / 256) end.

Lemma le_val_le_bytes n : forall v, le_val (le_bytes n v) = v mod 256 ^ N.of_nat n.
Proof.
  induction n as [|n IH]; intro v; cbn [le_bytes le_val].
  - symmetry. apply N.mod_1_r.
  - rewrite IH, Nat2N.inj_succ, N.pow_succ_r', N.mod_mul_r by (try apply N.pow_nonzero; discriminate). reflexivity.
Qed.

Lemma be16_le_bytes v : be16 v = rev (le_bytes 2 v).
Proof. reflexivity. Qed.

Lemma be32_le_bytes v : be32 v = rev (le_bytes 4 v).
Proof. cbn [le_bytes rev app]. rewrite !N.div_div by discriminate. reflexivity. Qed.

Lemma be_val_be16 v : be_val (be16 v) = v mod 65536.
Proof. unfold be_val. rewrite be16_le_bytes, rev_involutive. apply le_val_le_bytes. Qed.

Lemma be_val_be32 v : be_val (be32 v) = v mod 4294967296.
Proof. unfold be_val. rewrite be32_le_bytes, rev_involutive. apply le_val_le_bytes. Qed.

Lemma be_val_be16_small v : v < 65536 -> be_val (be16 v) = v.
Proof. intro H. rewrite be_val_be16. apply N.mod_small, H. Qed.

Lemma be_val_be32_small v : v < 4294967296 -> be_val (be32 v) = v.
Proof. intro H. rewrite be_val_be32. apply N.mod_small, H. Qed.

Lemma b8_small v : v < 256 -> b8 v = v.
Proof. apply N.mod_small. Qed.

Lemma b8_ok v : byte_ok (b8 v).
Proof. apply N.mod_lt. discriminate. Qed.

Lemma be16_ok v : Forall byte_ok (be16 v).
Proof. repeat (constructor; [apply b8_ok|]). constructor. Qed.

Lemma be32_ok v : Forall byte_ok (be32 v).
Proof. repeat (constructor; [apply b8_ok|]). constructor. Qed.

Lemma zeros_ok n : Forall byte_ok (zeros n).
Proof. induction n; constructor; [reflexivity | assumption]. Qed.

(* the predicates compare with the ten type numbers, so the intervals hold for every p, byte or not *)
Lemma classification_all p :
  is_session p = ((2 <=? p) && (p <=? 5)) /\
  is_data p = ((p =? 6) || (p =? 7) || (p =? 10) || (p =? 11)) /\
  is_ack p = ((p =? 8) || (p =? 9)) /\
  is_low_entropy p = ((p =? 10) || (p =? 11)) /\
  is_data_ack p = ((6 <=? p) && (p <=? 11)).
Proof.
  unfold is_data_ack, is_data, is_ack, is_low_entropy, is_session.
  destruct consts_types as (-> & -> & -> & -> & -> & -> & -> & -> & -> & ->).
  repeat split; lia.
Qed.

Lemma classification p : p < 256 ->
  is_session p = ((2 <=? p) && (p <=? 5)) /\
  is_data p = ((p =? 6) || (p =? 7) || (p =? 10) || (p =? 11)) /\
  is_ack p = ((p =? 8) || (p =? 9)) /\
  is_low_entropy p = ((p =? 10) || (p =? 11)) /\
  is_data_ack p = ((6 <=? p) && (p <=? 11)).
Proof. intros _. apply classification_all. Qed.

Lemma is_session_byte p : is_session p = true -> p < 256.
Proof. destruct (classification_all p) as (-> & _). lia. Qed.

Lemma is_data_ack_byte p : is_data_ack p = true -> p < 256.
Proof. destruct (classification_all p) as (_ & _ & _ & _ & ->). lia. Qed.

Lemma is_low_entropy_data_ack p : is_low_entropy p = true -> is_data_ack p = true.
Proof. intros H. unfold is_data_ack, is_data. rewrite H. rewrite orb_true_r. reflexivity. Qed.

Lemma partition p : p < 256 ->
  (is_session p && is_data_ack p = false) /\ (is_data p && is_ack p = false) /\
  (is_data_ack p = is_data p || is_ack p) /\ (is_low_entropy p = true -> is_data p = true) /\
  (is_session p || is_data_ack p = ((2 <=? p) && (p <=? 11))).
Proof. intros _. destruct (classification_all p) as (-> & -> & -> & -> & ->). repeat split; lia. Qed.

(* one lemma per row of the three tables of the document (model/Wire.v quotes them) *)
Lemma session_row_protocol_type m : slice 0 1 (marshal_session m) = [b8 (s_proto m)]. Proof. reflexivity. Qed.
Lemma session_row_unused_1 m : slice 1 1 (marshal_session m) = zeros 1. Proof. reflexivity. Qed.
Lemma session_row_timestamp m : slice 2 4 (marshal_session m) = be32 (s_ts m). Proof. reflexivity. Qed.
Lemma session_row_session_id m : slice 6 4 (marshal_session m) = be32 (s_sid m). Proof. reflexivity. Qed.
Lemma session_row_sequence_number m : slice 10 4 (marshal_session m) = be32 (s_seq m). Proof. reflexivity. Qed.
Lemma session_row_status_code m : slice 14 1 (marshal_session m) = [b8 (s_status m)]. Proof. reflexivity. Qed.
Lemma session_row_payload_length m : slice 15 2 (marshal_session m) = be16 (s_plen m). Proof. reflexivity. Qed.
Lemma session_row_suffix_length m : slice 17 1 (marshal_session m) = [b8 (s_slen m)]. Proof. reflexivity. Qed.
Lemma session_row_unused_14 m : slice 18 14 (marshal_session m) = zeros 14. Proof. reflexivity. Qed.
Lemma session_rows_cover m : length (marshal_session m) = (1 + 1 + 4 + 4 + 4 + 1 + 2 + 1 + 14)%nat. Proof. reflexivity. Qed.

Lemma data_row_protocol_type m : slice 0 1 (marshal_data m) = [b8 (d_proto m)]. Proof. reflexivity. Qed.
Lemma data_row_unused_1 m : is_low_entropy (b8 (d_proto m)) = false -> slice 1 1 (marshal_data m) = zeros 1.
Proof. intros H. unfold marshal_data. rewrite H. reflexivity. Qed.
Lemma data_row_timestamp m : slice 2 4 (marshal_data m) = be32 (d_ts m). Proof. reflexivity. Qed.
Lemma data_row_session_id m : slice 6 4 (marshal_data m) = be32 (d_sid m). Proof. reflexivity. Qed.
Lemma data_row_sequence_number m : slice 10 4 (marshal_data m) = be32 (d_seq m). Proof. reflexivity. Qed.
Lemma data_row_unack_sequence_number m : slice 14 4 (marshal_data m) = be32 (d_unack m). Proof. reflexivity. Qed.
Lemma data_row_window_size m : slice 18 2 (marshal_data m) = be16 (d_win m). Proof. reflexivity. Qed.
Lemma data_row_fragment_number m : slice 20 1 (marshal_data m) = [b8 (d_frag m)]. Proof. reflexivity. Qed.
Lemma data_row_prefix_length m : slice 21 1 (marshal_data m) = [b8 (d_prefix m)]. Proof. reflexivity. Qed.
Lemma data_row_payload_length m : slice 22 2 (marshal_data m) = be16 (d_plen m). Proof. reflexivity. Qed.
Lemma data_row_suffix_length m : slice 24 1 (marshal_data m) = [b8 (d_slen m)]. Proof. reflexivity. Qed.
Lemma data_row_unused_7 m : is_low_entropy (b8 (d_proto m)) = false -> slice 25 7 (marshal_data m) = zeros 7.
Proof. intros H. unfold marshal_data. rewrite H. reflexivity. Qed.
Lemma data_rows_cover m : length (marshal_data m) = (1 + 1 + 4 + 4 + 4 + 4 + 2 + 1 + 1 + 2 + 1 + 7)%nat.
Proof. unfold marshal_data. destruct (is_low_entropy (b8 (d_proto m))); reflexivity. Qed.

(* low entropy types: byte 1 and the last 7 bytes; the other rows are data_row_*, which hold for every type *)
Lemma le_row_low_entropy_mode m : is_low_entropy (b8 (d_proto m)) = true -> slice 1 1 (marshal_data m) = [b8 (d_mode m)].
Proof. intros H. unfold marshal_data. rewrite H. reflexivity. Qed.
Lemma le_row_low_entropy_mask m : is_low_entropy (b8 (d_proto m)) = true -> slice 25 4 (marshal_data m) = be32 (d_mask m).
Proof. intros H. unfold marshal_data. rewrite H. reflexivity. Qed.
Lemma le_row_extracted_payload_length m : is_low_entropy (b8 (d_proto m)) = true -> slice 29 2 (marshal_data m) = be16 (d_elen m).
Proof. intros H. unfold marshal_data. rewrite H. reflexivity. Qed.
Lemma le_row_low_entropy_mask_rotation m : is_low_entropy (b8 (d_proto m)) = true -> slice 31 1 (marshal_data m) = [b8 (d_rot m)].
Proof. intros H. unfold marshal_data. rewrite H. reflexivity. Qed.

Lemma bytes_ok_cons x l : Forall byte_ok l -> Forall byte_ok (b8 x :: l).
Proof. constructor; [apply b8_ok | assumption]. Qed.

Lemma bytes_ok_zero l : Forall byte_ok l -> Forall byte_ok (0 :: l).
Proof. constructor; [reflexivity | assumption]. Qed.

Lemma bytes_ok_app a b : Forall byte_ok a -> Forall byte_ok b -> Forall byte_ok (a ++ b).
Proof. intros Ha Hb. apply Forall_app. split; assumption. Qed.

(* Marshal appends single bytes [b8 x], 0, be16, be32 and zeros *)
Local Hint Resolve bytes_ok_app bytes_ok_cons bytes_ok_zero be32_ok be16_ok zeros_ok Forall_nil : bytes_ok.

Lemma marshal_session_length m :
  N.of_nat (length (marshal_session m)) = MetadataLength /\ Forall byte_ok (marshal_session m).
Proof. split; [reflexivity|]. unfold marshal_session. auto 15 with bytes_ok. Qed.

Lemma marshal_data_length m :
  N.of_nat (length (marshal_data m)) = MetadataLength /\ Forall byte_ok (marshal_data m).
Proof.
  split; [rewrite data_rows_cover; reflexivity|]. unfold marshal_data.
  destruct (is_low_entropy (b8 (d_proto m))); auto 15 with bytes_ok.
Qed.

(* the byte at an offset is the row of width 1 there *)
Lemma byte_at_slice o : forall b, byte_at o b = hd 0 (slice o 1 b).
Proof.
  induction o as [|o IH]; intros [|x b]; try reflexivity.
  apply IH.
Qed.

(* Unmarshal reads what Marshal wrote: every read is a row of the layout table above, and the big-endian digits
   of a value within its width give the value back. *)
Lemma session_roundtrip m : session_valid m -> unmarshal_session (marshal_session m) = Some m.
Proof.
  unfold session_valid. change MaxSessionOpenPayload with 1024. change (2 ^ 32) with 4294967296.
  intros (Hp & Hts & Hsid & Hseq & Hst & Hpl & Hsl).
  pose proof (b8_small _ (is_session_byte _ Hp)) as Hp8.
  unfold unmarshal_session.
  rewrite (proj1 (marshal_session_length m)), N.eqb_refl, !byte_at_slice.
  rewrite session_row_protocol_type, session_row_timestamp, session_row_session_id, session_row_sequence_number.
  rewrite session_row_status_code, session_row_payload_length, session_row_suffix_length.
  cbn [hd negb]. rewrite Hp8, Hp. cbn [negb].
  rewrite be_val_be16_small by lia.
  change MaxSessionOpenPayload with 1024.
  destruct (N.ltb_spec 1024 (s_plen m)) as [?|_]; [lia|].
  rewrite !be_val_be32_small by assumption. rewrite !b8_small by assumption.
  destruct m. reflexivity.
Qed.

(* types 6..9 and types 10, 11 together: the rows they share are read first, the cases differ by the four low
   entropy rows and their check *)
Lemma data_ack_roundtrip m : data_valid m \/ le_valid m -> unmarshal_data (marshal_data m) = Some m.
Proof.
  intros V.
  assert (Hc : is_data_ack (d_proto m) = true /\ data_common_valid m).
  { destruct V as [(Hp & _ & C & _) | (Hle & C & _)]; split; auto using is_low_entropy_data_ack. }
  destruct Hc as (Hp & Hts & Hsid & Hseq & Hun & Hwin & Hfr & Hpre & Hpl & Hsl).
  pose proof (b8_small _ (is_data_ack_byte _ Hp)) as Hp8.
  unfold unmarshal_data.
  rewrite (proj1 (marshal_data_length m)), N.eqb_refl, !byte_at_slice.
  rewrite data_row_protocol_type, data_row_timestamp, data_row_session_id, data_row_sequence_number.
  rewrite data_row_unack_sequence_number, data_row_window_size, data_row_fragment_number, data_row_prefix_length.
  rewrite data_row_payload_length, data_row_suffix_length.
  cbn [hd negb].
  rewrite Hp8, Hp.
  rewrite !be_val_be32_small, !be_val_be16_small, !b8_small by assumption.
  destruct V as [(_ & Hle & _ & Hmode & Hmask & Hel & Hrot) | (Hle & _ & Hmode & Hmask & Hel & Hrot & Hok)].
  all: rewrite Hle.
  2: rewrite le_row_low_entropy_mode, le_row_low_entropy_mask by (rewrite Hp8; exact Hle).
  2: rewrite le_row_extracted_payload_length, le_row_low_entropy_mask_rotation by (rewrite Hp8; exact Hle).
  all: cbn [hd negb andb].
  2: rewrite be_val_be32_small, be_val_be16_small, !b8_small, Hok by assumption.
  all: destruct m as [p mode ts sid seq un win fr pre pl sl mask el rot].
  1: cbn [d_mode d_mask d_elen d_rot] in Hmode, Hmask, Hel, Hrot.
  1: subst mode mask el rot.
  all: reflexivity.
Qed.

Lemma data_roundtrip m : data_valid m -> unmarshal_data (marshal_data m) = Some m.
Proof. intro V. apply data_ack_roundtrip. left. exact V. Qed.

Lemma le_roundtrip m : le_valid m -> unmarshal_data (marshal_data m) = Some m.
Proof. intro V. apply data_ack_roundtrip. right. exact V. Qed.

Lemma le_val_bound l : Forall byte_ok l -> le_val l < 256 ^ N.of_nat (length l).
Proof.
  induction 1 as [|b t Hb _ IH]; cbn [le_val length]; [reflexivity|].
  rewrite Nat2N.inj_succ, N.pow_succ_r'. unfold byte_ok in Hb. lia.
Qed.

Lemma inc_le_length l : length (inc_le l) = length l.
Proof. induction l as [|b t IH]; cbn [inc_le]; [reflexivity|]. destruct (_ =? 0); cbn [length]; congruence. Qed.

Lemma inc_le_ok l : Forall byte_ok l -> Forall byte_ok (inc_le l).
Proof.
  induction 1 as [|b t Hb Ht IH]; cbn [inc_le]; [constructor|].
  destruct (_ =? 0); constructor; auto; [reflexivity | apply b8_ok].
Qed.

Lemma inc_le_val l : Forall byte_ok l -> le_val (inc_le l) = (le_val l + 1) mod 256 ^ N.of_nat (length l).
Proof.
  induction 1 as [|b t Hb Ht IH]; [reflexivity|].
  cbn [inc_le le_val length]. rewrite Nat2N.inj_succ, N.pow_succ_r'.
  pose proof (le_val_bound t Ht) as Hv. unfold byte_ok in Hb.
  set (X := 256 ^ N.of_nat (length t)) in *. set (v := le_val t) in *.
  destruct (N.eqb_spec ((b + 1) mod 256) 0) as [E|E]; cbn [le_val].
  - rewrite IH. assert (b = 255) by lia. subst b.
    replace (255 + 256 * v + 1) with (256 * (v + 1)) by lia.
    rewrite N.mul_mod_distr_l by lia. lia.
  - assert (b + 1 < 256) by lia.
    rewrite (N.mod_small (b + 1)) by lia. rewrite N.mod_small; nia.
Qed.

Lemma nonce_inc_length n : length (nonce_inc n) = length n.
Proof. unfold nonce_inc. rewrite rev_length, inc_le_length, rev_length. reflexivity. Qed.

Lemma nonce_inc_ok n : Forall byte_ok n -> Forall byte_ok (nonce_inc n).
Proof. intros H. unfold nonce_inc. apply Forall_rev, inc_le_ok, Forall_rev. assumption. Qed.

Lemma nonce_inc_val n : Forall byte_ok n ->
  be_val (nonce_inc n) = (be_val n + 1) mod 256 ^ N.of_nat (length n).
Proof.
  intros H. unfold be_val, nonce_inc. rewrite rev_involutive.
  rewrite inc_le_val by (apply Forall_rev; assumption). rewrite rev_length. reflexivity.
Qed.

Lemma nonce_iter_length k n : length (nonce_iter k n) = length n.
Proof. induction k; cbn [nonce_iter]; [reflexivity|]. rewrite nonce_inc_length. assumption. Qed.

Lemma nonce_iter_ok k n : Forall byte_ok n -> Forall byte_ok (nonce_iter k n).
Proof. intros H. induction k; cbn [nonce_iter]; auto using nonce_inc_ok. Qed.

Lemma nonce_iter_be_val k n : Forall byte_ok n ->
  be_val (nonce_iter k n) = (be_val n + N.of_nat k) mod 256 ^ N.of_nat (length n).
Proof.
  intros Hb. induction k as [|k IH]; cbn [nonce_iter].
  - rewrite N.add_0_r. symmetry. apply N.mod_small.
    pose proof (le_val_bound (rev n) (Forall_rev Hb)) as B. rewrite rev_length in B. exact B.
  - rewrite nonce_inc_val by (apply nonce_iter_ok; assumption).
    rewrite nonce_iter_length, IH, N.add_mod_idemp_l by (apply N.pow_nonzero; discriminate).
    f_equal. lia.
Qed.

Lemma pow_256_24 : 256 ^ 24 = 2 ^ 192.
Proof. reflexivity. Qed.

Lemma nonce_inc_is_succ n : N.of_nat (length n) = NonceSize -> Forall byte_ok n ->
  be_val (nonce_inc n) = (be_val n + 1) mod 2 ^ 192 /\
  N.of_nat (length (nonce_inc n)) = NonceSize /\ Forall byte_ok (nonce_inc n).
Proof.
  intros Hl Hb. change NonceSize with 24 in *. repeat split.
  - rewrite nonce_inc_val by assumption. rewrite Hl, pow_256_24. reflexivity.
  - rewrite nonce_inc_length. assumption.
  - apply nonce_inc_ok. assumption.
Qed.

Lemma nonce_iter_val k n : N.of_nat (length n) = NonceSize -> Forall byte_ok n ->
  be_val (nonce_iter k n) = (be_val n + N.of_nat k) mod 2 ^ 192.
Proof. intros Hl Hb. rewrite nonce_iter_be_val by exact Hb. rewrite Hl. change NonceSize with 24. rewrite pow_256_24. reflexivity. Qed.

Lemma add_mod_distinct M x d : 0 < d < M -> (x + d) mod M <> x mod M.
Proof.
  intros Hd E. assert (HM : M <> 0) by lia.
  rewrite <- N.add_mod_idemp_l in E by exact HM.
  pose proof (N.mod_lt x M HM) as Hr. set (r := x mod M) in *.
  destruct (N.lt_ge_cases (r + d) M) as [L|L].
  - rewrite N.mod_small in E by exact L. lia.
  - rewrite <- (N.mod_unique (r + d) M 1 (r + d - M)) in E by lia. lia.
Qed.

Lemma nonce_iter_distinct j k n : N.of_nat (length n) = NonceSize -> Forall byte_ok n ->
  (j < k)%nat -> N.of_nat (k - j) < 2 ^ 192 -> nonce_iter j n <> nonce_iter k n.
Proof.
  intros Hl Hb Hjk Hd E.
  apply (add_mod_distinct (2 ^ 192) (be_val n + N.of_nat j) (N.of_nat (k - j))); [lia|].
  rewrite <- (nonce_iter_val j n Hl Hb), E, (nonce_iter_val k n Hl Hb). f_equal. lia.
Qed.

Lemma user_hint_length (H : list N -> list N) (H_len : forall x, length (H x) = 32%nat) user nonce :
  length (user_hint H user nonce) = N.to_nat HintLen.
Proof. unfold user_hint. rewrite firstn_length, H_len. reflexivity. Qed.

(* for a nonce of any length that holds the hint input and the hint *)
Lemma set_user_hint_spec (H : list N -> list N) (H_len : forall x, length (H x) = 32%nat) user nonce :
  (N.to_nat HintInputLen + N.to_nat HintLen <= length nonce)%nat ->
  length (set_user_hint H user nonce) = length nonce /\
  firstn (length nonce - N.to_nat HintLen) (set_user_hint H user nonce) = firstn (length nonce - N.to_nat HintLen) nonce /\
  skipn (length nonce - N.to_nat HintLen) (set_user_hint H user nonce) = user_hint H user nonce /\
  set_user_hint H user (set_user_hint H user nonce) = set_user_hint H user nonce.
Proof.
  change (N.to_nat HintLen) with 4%nat. change (N.to_nat HintInputLen) with 16%nat. intros Hl.
  unfold set_user_hint. change (N.to_nat HintLen) with 4%nat. set (n := (length nonce - 4)%nat).
  assert (Ln : length (firstn n nonce) = n) by (rewrite firstn_length; lia).
  (* what is in front of the hint is a prefix of the nonce, n bytes long *)
  assert (F : forall k t, (k <= n)%nat -> firstn k (firstn n nonce ++ t) = firstn k nonce).
  { intros k t Hk. rewrite firstn_app, Ln. replace (k - n)%nat with 0%nat by lia.
    rewrite firstn_O, app_nil_r, firstn_firstn. f_equal. lia. }
  assert (Lh : forall t, length (firstn n nonce ++ user_hint H user t) = length nonce).
  { intro t. rewrite app_length, Ln, user_hint_length by exact H_len. change (N.to_nat HintLen) with 4%nat. lia. }
  repeat split.
  - apply Lh.
  - apply F. lia.
  - rewrite skipn_app, Ln, skipn_all2 by lia. replace (n - n)%nat with 0%nat by lia. reflexivity.
  - rewrite Lh. fold n. rewrite F by lia. f_equal.
    unfold user_hint. change (N.to_nat HintInputLen) with 16%nat. rewrite F by lia. reflexivity.
Qed.

Section SealFacts.
  Variable seal : list N -> list N -> list N -> list N.
  Hypothesis seal_len : forall k n p, length (seal k n p) = (length p + N.to_nat TagOverhead)%nat.

  (* the length of a UDP datagram without low entropy encoding: nonce, sealed metadata, paddings, payload box if any *)
  Lemma udp_datagram_length key nonce meta pad1 payload pad2 :
    N.of_nat (length nonce) = NonceSize -> N.of_nat (length meta) = MetadataLength ->
    length (udp_datagram seal key nonce meta pad1 payload pad2 (fun x => x)) =
    (N.to_nat (Z.to_N C09_packetNonHeaderPosition) + length pad1 +
     (match payload with [] => 0 | _ => length payload + N.to_nat TagOverhead end) + length pad2)%nat.
  Proof.
    intros Hn Hm. change NonceSize with 24 in Hn. change MetadataLength with 32 in Hm.
    unfold udp_datagram, segment_wire. rewrite !app_length, seal_len.
    change (N.to_nat (Z.to_N C09_packetNonHeaderPosition)) with 72%nat. change (N.to_nat TagOverhead) with 16%nat.
    destruct payload as [|x t]; [cbn [length]; lia|]. rewrite seal_len. change (N.to_nat TagOverhead) with 16%nat. lia.
  Qed.
End SealFacts.

Lemma sess_run_last {K} (st : option K) (ks : list K) (k : K) : sess_run K st (ks ++ [k]) = Some k.
Proof. unfold sess_run. rewrite fold_left_app. reflexivity. Qed.

Lemma sess_run_nil {K} (st : option K) : sess_run K st [] = st.
Proof. reflexivity. Qed.

(* non-vacuity: concrete valid values *)

Definition ex_session : session_meta :=
  {| s_proto := 2; s_ts := 28333333; s_sid := 305419896; s_seq := 7; s_status := 1; s_plen := 1024; s_slen := 255 |}.
Definition ex_data : data_meta :=
  {| d_proto := 6; d_mode := 0; d_ts := 28333333; d_sid := 305419896; d_seq := 4294967295; d_unack := 9; d_win := 256;
     d_frag := 3; d_prefix := 200; d_plen := 32768; d_slen := 255; d_mask := 0; d_elen := 0; d_rot := 0 |}.
Definition ex_le : data_meta :=
  {| d_proto := 10; d_mode := 1; d_ts := 28333333; d_sid := 1; d_seq := 2; d_unack := 3; d_win := 4;
     d_frag := 0; d_prefix := 5; d_plen := 8; d_slen := 6; d_mask := 252645135; d_elen := 4; d_rot := 48 |}.

Example ex_session_valid : session_valid ex_session.
Proof. unfold session_valid; repeat split; vm_compute; congruence. Qed.
Example ex_data_valid : data_valid ex_data.
Proof. unfold data_valid, data_common_valid; repeat split; vm_compute; congruence. Qed.
Example ex_le_valid : le_valid ex_le.
Proof. unfold le_valid, data_common_valid; repeat split; vm_compute; congruence. Qed.
Example ex_session_bytes : marshal_session ex_session =
  [2;0; 1;176;85;21; 18;52;86;120; 0;0;0;7; 1; 4;0; 255; 0;0;0;0;0;0;0;0;0;0;0;0;0;0].
Proof. vm_compute. reflexivity. Qed.
Example ex_le_bytes : marshal_data ex_le =
  [10;1; 1;176;85;21; 0;0;0;1; 0;0;0;2; 0;0;0;3; 0;4; 0; 5; 0;8; 6; 15;15;15;15; 0;4; 48].
Proof. vm_compute. reflexivity. Qed.
(* rejected inputs are rejected by a check, not by a default value (the last one fails two checks: mode 0, and a
   payload length 4 that is not a multiple of 8) *)
Example ex_reject_session_payload : unmarshal_session (marshal_session {| s_proto := 2; s_ts := 0; s_sid := 0; s_seq := 0; s_status := 0; s_plen := 1025; s_slen := 0 |}) = None.
Proof. vm_compute. reflexivity. Qed.
Example ex_reject_unknown_type : unmarshal_data (marshal_data {| d_proto := 12; d_mode := 0; d_ts := 0; d_sid := 0; d_seq := 0; d_unack := 0; d_win := 0; d_frag := 0; d_prefix := 0; d_plen := 0; d_slen := 0; d_mask := 0; d_elen := 0; d_rot := 0 |}) = None.
Proof. vm_compute. reflexivity. Qed.
Example ex_reject_short : unmarshal_session (firstn 31 (marshal_session ex_session)) = None.
Proof. vm_compute. reflexivity. Qed.
Example ex_reject_le_mode0 : unmarshal_data (marshal_data {| d_proto := 10; d_mode := 0; d_ts := 0; d_sid := 0; d_seq := 0; d_unack := 0; d_win := 0; d_frag := 0; d_prefix := 0; d_plen := 4; d_slen := 0; d_mask := 0; d_elen := 4; d_rot := 0 |}) = None.
Proof. vm_compute. reflexivity. Qed.
Example ex_nonce_carry : nonce_inc (repeat 0 21 ++ [1; 255; 255]) = repeat 0 21 ++ [2; 0; 0].
Proof. vm_compute. reflexivity. Qed.
Example ex_nonce_wrap : nonce_inc (repeat 255 24) = repeat 0 24.
Proof. vm_compute. reflexivity. Qed.

Example ex_sess_run : sess_run N None [1700000040; 1700000040; 1700000160; 1700000280] = Some 1700000280.
Proof. reflexivity. Qed.
