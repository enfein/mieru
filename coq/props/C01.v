(* C01 - TCP transport: every byte delivered exactly once, in order, to the right session.
   The AEAD of one direction (seal/open), the metadata byte layout (marshal_meta/parse_meta) and the low entropy
   body codec (le_len/le_encode/le_decode) are universally quantified; what is assumed of them is a premise. *)
From Coq Require Import List NArith.
From M Require Import model.TcpStream model.TcpStreamWire proofs.TcpStreamProofs proofs.TcpStreamInst proofs.TcpStreamExamples proofs.TcpStreamBackpressure proofs.TcpStreamWriteValue.
From M Require proofs.TamperProofs.
(* proofs.TcpStreamExamples holds the non-vacuity examples of these theorems; it is required so that they are built
   with this file *)
Import ListNotations.
Open Scope N_scope.

(* chunking independence: a and b are what two successive reads of the connection return *)
Theorem C01_feed_app :
  forall (open : list N -> list N -> option (list N)) (parse_meta : list N -> option minfo)
         (le_decode : leparams -> N -> list N -> option (list N)) (st : rstate) (a b : list N),
    feed open parse_meta le_decode st (a ++ b) =
    (let (l1, st1) := feed open parse_meta le_decode st a in
     let (l2, st2) := feed open parse_meta le_decode st1 b in (l1 ++ l2, st2)).
Proof. exact feed_app. Qed.
Print Assumptions C01_feed_app.

(* round trip: paddings, low entropy parameters and metadata are arbitrary as far as meta_ok / le_ok accept them;
   mkR [] _ false: the receiver ends with an empty buffer and no error *)
Theorem C01_feed_serialize :
  forall (seal : list N -> list N -> list N) (open : list N -> list N -> option (list N))
         (marshal_meta : minfo -> list N) (parse_meta : list N -> option minfo)
         (le_len : leparams -> N -> N) (le_encode : leparams -> bool -> list N -> list N)
         (le_decode : leparams -> N -> list N -> option (list N))
         (meta_ok : minfo -> bool) (le_ok : leparams -> N -> bool),
    (forall n p, length (seal n p) = (length p + tagLen)%nat) ->
    (forall n p, open n (seal n p) = Some p) ->
    (forall m, meta_ok m = true -> length (marshal_meta m) = metaLen) ->
    (forall m, meta_ok m = true -> parse_meta (marshal_meta m) = Some m) ->
    (forall lp pb n p, le_ok lp (lenN p) = true ->
       length (le_encode lp pb (firstn (length p) (seal n p))) = N.to_nat (le_len lp (lenN p))) ->
    (forall lp pb n p, le_ok lp (lenN p) = true ->
       le_decode lp (lenN p) (le_encode lp pb (firstn (length p) (seal n p))) = Some (firstn (length p) (seal n p))) ->
    forall (segs : list segment) (n : list N),
      Forall (seg_ok le_len meta_ok le_ok) segs -> length n = nonceLen ->
      feed open parse_meta le_decode r_init (serialize seal marshal_meta le_len le_encode false n segs) =
      (map (deliver le_len) segs,
       mkR [] (ser_next seal marshal_meta le_len le_encode false n segs) false).
Proof. exact feed_serialize. Qed.
Print Assumptions C01_feed_serialize.

(* Session.Write / writeChunk: the segments planned for any series of Writes and control segments of a fresh session
   (w_init) carry exactly the written bytes, in order, numbered from 0, each within its size limit (pseg_ok: session
   payload <= MaxSessionOpenPayload and unfragmented, data payload non-empty and <= maxPDU), fragments counting down *)
Theorem C01_plan_concat :
  forall (client : bool) (evs : list wevent), Forall wevent_ok evs ->
    let l := plan_events client w_init evs in
    concat (map p_payload l) = written evs /\ seqs_from 0 l /\ Forall pseg_ok l /\ frag_chain l.
Proof. exact plan_concat. Qed.
Print Assumptions C01_plan_concat.

(* the property.  ss: the sessions of one connection, each with its send-side events and its segments on the wire
   (sess_ok: the planned ones; paddings, masks, timestamps, windows are free); wire: any interleaving of whole
   segments (sendMutex); chunks: what the reads of the connection return.  q is the session's recvQueue, ks the
   buffer sizes of successive Read calls, sched any schedule of arrivals and Reads.  No conjunct depends on another
   session. *)
Theorem C01_tcp_integrity :
  forall (seal : list N -> list N -> list N) (open : list N -> list N -> option (list N))
         (marshal_meta : minfo -> list N) (parse_meta : list N -> option minfo)
         (le_len : leparams -> N -> N) (le_encode : leparams -> bool -> list N -> list N)
         (le_decode : leparams -> N -> list N -> option (list N))
         (meta_ok : minfo -> bool) (le_ok : leparams -> N -> bool),
    (forall n p, length (seal n p) = (length p + tagLen)%nat) ->
    (forall n p, open n (seal n p) = Some p) ->
    (forall m, meta_ok m = true -> length (marshal_meta m) = metaLen) ->
    (forall m, meta_ok m = true -> parse_meta (marshal_meta m) = Some m) ->
    (forall lp pb n p, le_ok lp (lenN p) = true ->
       length (le_encode lp pb (firstn (length p) (seal n p))) = N.to_nat (le_len lp (lenN p))) ->
    (forall lp pb n p, le_ok lp (lenN p) = true ->
       le_decode lp (lenN p) (le_encode lp pb (firstn (length p) (seal n p))) = Some (firstn (length p) (seal n p))) ->
    forall (client : bool) (ss : list sess) (wire : list segment) (n0 : list N) (chunks : list (list N)),
      Forall (sess_ok client) ss -> NoDup (map sess_id ss) ->
      interleave (map snd ss) wire -> Forall (seg_ok le_len meta_ok le_ok) wire -> length n0 = nonceLen ->
      concat chunks = serialize seal marshal_meta le_len le_encode false n0 wire ->
      r_failed (snd (feed_all open parse_meta le_decode r_init chunks)) = false /\
      forall t, In t ss ->
        let q := map snd (recv_queue (demux (sess_id t) (fst (feed_all open parse_meta le_decode r_init chunks)))) in
        let w := written (snd (fst t)) in
        concat q = w /\
        (forall ks, concat (read_all ks q) = firstn (sum_nat ks) w) /\
        (forall ks, (length w <= sum_nat ks)%nat -> concat (read_all ks q) = w) /\
        (forall sched more, arrivals_of sched ++ more = q ->
           exists rest, concat (run_reads (mkRd [] []) sched) ++ rest = w).
Proof. exact tcp_integrity. Qed.
Print Assumptions C01_tcp_integrity.

(* under INT-CTXT with the nonce bound in (a box opens under a nonce only if the sender sealed
   that plaintext under that nonce; nonces of one direction never repeat), for ANY received byte stream that
   still begins with the sender's nonce, the delivered segments are a prefix of the sent segments, and after
   the first failure nothing is ever delivered.  (When the adversary also rewrites the 24 nonce bytes, boxes
   still open only under the nonce they were sealed with: the delivered segments are then a run of the sent
   segments that starts at a later segment boundary - dropping the head of a stream is not detected by the
   framing layer: C04_tcp_infix_from_boundary.) *)
Theorem C01_tcp_tamper_prefix :
  forall (open : list N -> list N -> option (list N)) (marshal_meta : minfo -> list N)
         (parse_meta : list N -> option minfo) (le_len : leparams -> N -> N)
         (le_decode : leparams -> N -> list N -> option (list N))
         (meta_ok : minfo -> bool) (le_ok : leparams -> N -> bool),
    (forall m, meta_ok m = true -> parse_meta (marshal_meta m) = Some m) ->
    forall (n0 : list N) (segs : list segment),
      (forall n c p, open n c = Some p -> In (n, p) (sealed marshal_meta le_len n0 segs)) ->
      NoDup (map fst (sealed marshal_meta le_len n0 segs) ++ [nonce_after n0 segs]) ->
      Forall (seg_ok le_len meta_ok le_ok) segs ->
      forall x x1, take nonceLen x = Some (n0, x1) ->
        (exists k, fst (feed open parse_meta le_decode r_init x) = firstn k (map (deliver le_len) segs)) /\
        (forall y, r_failed (snd (feed open parse_meta le_decode r_init x)) = true ->
                   fst (feed open parse_meta le_decode (snd (feed open parse_meta le_decode r_init x)) y) = []).
Proof. exact TamperProofs.tamper_prefix. Qed.
Print Assumptions C01_tcp_tamper_prefix.

(* This theorem and the next: C01_feed_serialize and C01_tcp_integrity with the codecs made concrete
   (model/TcpStreamWire.v): metadata layout of model/Wire.v (round trips: C09), low entropy codec of
   model/LowEntropy.v (C17).  Left as premises: the AEAD (16 byte tag, open inverts seal, ciphertexts are byte
   strings).  meta_ok_w now: every field in the range of its wire field and 0 where the layout has none, timestamp
   within one minute of the receiver's clock [now], constant while the stream is parsed; le_ok_w: parameters accepted
   by validateLowEntropyCodecParams, 32 bit mask, 1..8191 chunks of payload. *)
Theorem C01_feed_serialize_concrete :
  forall (seal : list N -> list N -> list N) (open : list N -> list N -> option (list N)),
    (forall n p, length (seal n p) = (length p + tagLen)%nat) ->
    (forall n p, open n (seal n p) = Some p) ->
    (forall n p, Forall (fun b => b < 256) (seal n p)) ->
    forall (now : N) (segs : list segment) (n : list N),
      Forall (seg_ok le_len_w (meta_ok_w now) le_ok_w) segs -> length n = nonceLen ->
      feed open (parse_w now) le_decode_w r_init (serialize seal marshal_w le_len_w le_encode_w false n segs) =
      (map (deliver le_len_w) segs, mkR [] (ser_next seal marshal_w le_len_w le_encode_w false n segs) false).
Proof. exact feed_serialize_concrete. Qed.
Print Assumptions C01_feed_serialize_concrete.

Theorem C01_tcp_integrity_concrete :
  forall (seal : list N -> list N -> list N) (open : list N -> list N -> option (list N)),
    (forall n p, length (seal n p) = (length p + tagLen)%nat) ->
    (forall n p, open n (seal n p) = Some p) ->
    (forall n p, Forall (fun b => b < 256) (seal n p)) ->
    forall (now : N) (client : bool) (ss : list sess) (wire : list segment) (n0 : list N) (chunks : list (list N)),
      Forall (sess_ok client) ss -> NoDup (map sess_id ss) ->
      interleave (map snd ss) wire -> Forall (seg_ok le_len_w (meta_ok_w now) le_ok_w) wire -> length n0 = nonceLen ->
      concat chunks = serialize seal marshal_w le_len_w le_encode_w false n0 wire ->
      r_failed (snd (feed_all open (parse_w now) le_decode_w r_init chunks)) = false /\
      forall t, In t ss ->
        let q := map snd (recv_queue (demux (sess_id t) (fst (feed_all open (parse_w now) le_decode_w r_init chunks)))) in
        let w := written (snd (fst t)) in
        concat q = w /\
        (forall ks, concat (read_all ks q) = firstn (sum_nat ks) w) /\
        (forall ks, (length w <= sum_nat ks)%nat -> concat (read_all ks q) = w) /\
        (forall sched more, arrivals_of sched ++ more = q ->
           exists rest, concat (run_reads (mkRd [] []) sched) ++ rest = w).
Proof. exact tcp_integrity_concrete. Qed.
Print Assumptions C01_tcp_integrity_concrete.

(* C01_tcp_tamper_prefix with the concrete metadata layout; premises: INT-CTXT relative to the boxes the sender sealed
   (only sealed boxes open, under their own nonce) and freshness of the nonces *)
Theorem C01_tcp_tamper_prefix_concrete :
  forall (open : list N -> list N -> option (list N)) (now : N) (n0 : list N) (segs : list segment),
    (forall n c p, open n c = Some p -> In (n, p) (sealed marshal_w le_len_w n0 segs)) ->
    NoDup (map fst (sealed marshal_w le_len_w n0 segs) ++ [nonce_after n0 segs]) ->
    Forall (seg_ok le_len_w (meta_ok_w now) le_ok_w) segs ->
    forall x x1, take nonceLen x = Some (n0, x1) ->
      (exists k, fst (feed open (parse_w now) le_decode_w r_init x) = firstn k (map (deliver le_len_w) segs)) /\
      (forall y, r_failed (snd (feed open (parse_w now) le_decode_w r_init x)) = true ->
                 fst (feed open (parse_w now) le_decode_w (snd (feed open (parse_w now) le_decode_w r_init x)) y) = []).
Proof.
  intros open now.
  apply (TamperProofs.tamper_prefix open marshal_w (parse_w now) le_len_w le_decode_w (meta_ok_w now) le_ok_w (parse_marshal_w now)).
Qed.
Print Assumptions C01_tcp_tamper_prefix_concrete.

(* receiver-side hand-off (deliverSegmentToSession -> recvChan -> input loop -> recvQueue of capacity cap):
   waitForRecvQueueSpace gives up only when the session is closed, hence the two premises.  evs: any interleaving of
   parsing (HParsed), input-loop attempts (HDeliver) and application Reads (HRead); h_flat: unreadBuf, recvQueue and
   pending, in order.  The queue stays within cap unless it started longer. *)
Theorem C01_backpressure_lossless : forall (cap : nat) (evs : list hev) (st : hst),
  h_closed st = false -> no_close evs = true ->
  let (outs, st') := run_h cap st evs in
  h_closed st' = false /\
  concat outs ++ h_flat st' = h_flat st ++ concat (parsed_of evs) /\
  (length (rd_queue (h_rd st')) <= Nat.max cap (length (rd_queue (h_rd st))))%nat.
Proof. exact backpressure_lossless. Qed.
Print Assumptions C01_backpressure_lossless.

(* Write has value semantics: plan_events / serialize take the written bytes as values; the code takes them from a
   caller-owned buffer and returns from Write before the queued segment is encrypted.  a_run true: the enqueue copies
   (writeChunk); steps: the application refills its buffer | Write | the output goroutine encrypts what is queued.
   The last conjunct hands what was sent to the planner (C01_plan_concat, C01_tcp_integrity carry it on). *)
Theorem C01_write_captures_value : forall steps : list astep,
  let st := a_run true a_init (steps ++ [AFlush]) in
  a_queue st = [] /\ a_sent st = values_written [] steps /\
  forall mode, written (map (WWrite mode) (a_sent st)) = concat (values_written [] steps).
Proof. exact write_captures_value. Qed.
Print Assumptions C01_write_captures_value.

(* the variant that keeps a reference to the caller's buffer (copy = false): two writes from one reused buffer
   send b_2 b_2 *)
Theorem C01_write_alias_refuted :
  values_written [] alias_witness = [[1; 1; 1]; [2; 2; 2]] /\
  a_sent (a_run false a_init (alias_witness ++ [AFlush])) = [[2; 2; 2]; [2; 2; 2]] /\
  a_sent (a_run true a_init (alias_witness ++ [AFlush])) = [[1; 1; 1]; [2; 2; 2]] /\
  exists steps, a_sent (a_run false a_init (steps ++ [AFlush])) <> values_written [] steps.
Proof. exact write_alias_refuted. Qed.
Print Assumptions C01_write_alias_refuted.
