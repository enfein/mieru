(* C02 — UDP transport: reliable, ordered, exactly-once stream over a faulty network; progress.
   LTS theorems hold in every reachable state of model/UdpProto.v's transition system of one direction of one
   session (the other direction is a second instance), i.e. for every schedule and every sequence of losses,
   duplications, delays and reorderings.  Trace theorems hold of every recorded trace the executable acceptor
   accepts (the correspondence run shows that the traces of the real endpoints are accepted). *)
From Coq Require Import List ZArith Bool Lia.
From M Require Import gen.Consts model.UdpProto proofs.UdpProtoProofs.
From M Require model.Sizes proofs.SizesProofs proofs.UdpSizesProofs.
Import ListNotations.
Open Scope nat_scope.

(* safety, full: the bytes read at one end are a prefix of the bytes written at the other ... *)
Theorem C02_udp_exactly_once : forall s, reach s -> exists rest, written_bytes s = read_bytes s ++ rest.
Proof. exact exactly_once_in_order. Qed.
Print Assumptions C02_udp_exactly_once.

(* ... equal once every segment was moved to the receive queue and every released byte read ... *)
Theorem C02_udp_exactly_once_complete : forall s, reach s ->
  next_recv s = length (assigned s) -> rd s = length (bytes_of (got s)) -> read_bytes s = written_bytes s.
Proof.
  intros s H Hn Hr. apply reach_inv in H.
  unfold written_bytes, read_bytes. rewrite Hr, firstn_all, (inv_got _ H), Hn, firstn_all. reflexivity.
Qed.
Print Assumptions C02_udp_exactly_once_complete.

(* ... and what has been read is never revoked, re-delivered or reordered by a later step *)
Theorem C02_udp_read_stable : forall s l s', reach s -> lstep s l s' -> exists more, read_bytes s' = read_bytes s ++ more.
Proof.
  intros s l s' HR H. pose proof (inv_rd _ (reach_inv _ HR)) as I9.
  destruct H; unfold read_bytes; proj; try (exists []; rewrite app_nil_r; reflexivity).
  - (* move *) exists []. rewrite app_nil_r, bytes_of_app. rewrite firstn_app_le by lia. reflexivity.
  - (* read *) exists (firstn k (skipn (rd s) (bytes_of (got s)))).
    rewrite <- (firstn_skipn (rd s) (bytes_of (got s))) at 1.
    rewrite firstn_app, firstn_firstn, firstn_length_le by lia.
    replace (Nat.min (rd s + k) (rd s)) with (rd s) by lia. replace (rd s + k - rd s) with k by lia. reflexivity.
Qed.
Print Assumptions C02_udp_read_stable.

Example C02_state_nonvacuous : reach ex_state /\ read_bytes ex_state = [1%N; 2%N; 3%N] /\ una ex_state = 1.
Proof. split; [exact ex_state_reach | split; reflexivity]. Qed.

(* progress, partial: while data is undelivered, a transmission of exactly the awaited segment is enabled
   (a retransmission regardless of the window if it was sent before, else a first transmission if the send
   window is open), and delivering it advances the receiver.  For a closed window see C02_progress_by_ack.  NOT
   proved: that the timers eventually fire, CUBIC/RTT arithmetic; the Go driver's oracle watches these. *)
Theorem C02_progress_partial : forall s, reach s -> next_recv s < length (assigned s) ->
  (next_recv s < sent_hi s \/ 0 < win s) ->
  exists l s1 c s2 s3,
    (l = LRetx (next_recv s) \/ l = LSendNew (next_recv s)) /\
    (next_recv s < sent_hi s -> l = LRetx (next_recv s)) /\
    lstep s l s1 /\ lstep s1 (LRecvData (next_recv s) c) s2 /\ lstep s2 LMove s3 /\
    next_recv s3 = S (next_recv s) /\ nth_error (assigned s) (next_recv s) = Some c.
Proof. exact progress_partial. Qed.
Print Assumptions C02_progress_partial.

Example C02_progress_nonvacuous : exists s, reach s /\ next_recv s < length (assigned s) /\ 0 < win s.
Proof.
  eexists. split; [eapply reach_step; [apply ex_state_reach | apply (s_write _ cB)]|]. cbn. lia.
Qed.

(* the window hypothesis of C02_progress_partial is necessary: with everything sent so far received and the send
   window closed nothing transmits the awaited segment until a window update arrives.  (Without
   fixes/C02-server-write-before-open-response.diff the implementation gets stuck in exactly this way - driver sig
   server-write-overtakes-open-response: the still "opening" client may not acknowledge.) *)
Theorem C02_progress_unconditional_refuted : exists s, reach s /\ next_recv s < length (assigned s) /\
  forall l s', lstep s l s' -> is_awaited s l = 0.
Proof. exact progress_unconditional_refuted. Qed.
Print Assumptions C02_progress_unconditional_refuted.

(* with the send window computed as the code does, min(cwnd - |sendBuf|, remoteWindowSize), every reachable state
   projects to a reachable state of the basic system: all theorems above apply to it *)
Theorem C02_windowed_refines : forall s, wreach s -> reach (base s) /\ win (base s) = swin (base s) (cwnd s) (rwnd s).
Proof. intros s H. apply wreach_inv in H. split; [apply (wi_reach _ H) | apply (wi_win _ H)]. Qed.
Print Assumptions C02_windowed_refines.

(* the window-reopening ack: in every reachable state the receiver can emit an ack carrying its current window
   and, when the sender processes it - WHATEVER its ack number, in particular an unchanged one (heartbeat) - the
   sender's view becomes the receiver's free space; with nothing in flight and free space the send window is > 0 *)
Theorem C02_window_reopen_enabled : forall s, wreach s ->
  exists s1 s2,
    wstep s (WSendAck (next_recv (base s))) s1 /\ wstep s1 (WRecvAck (next_recv (base s)) (rspace s)) s2 /\
    rwnd s2 = rspace s /\ cwnd s2 = cwnd s /\ rspace s2 = rspace s /\
    assigned (base s2) = assigned (base s) /\ next_recv (base s2) = next_recv (base s) /\ sent_hi (base s2) = sent_hi (base s) /\
    (next_recv (base s) = sent_hi (base s) -> win (base s2) = Nat.min (cwnd s) (rspace s)) /\
    (next_recv (base s) = sent_hi (base s) -> 0 < rspace s -> 0 < win (base s2)).
Proof. exact window_reopen_enabled. Qed.
Print Assumptions C02_window_reopen_enabled.

(* progress WITHOUT the window hypothesis: undelivered data and free space at the receiver => at most five steps
   (ack, its delivery, transmission of the awaited segment, its delivery, move) advance the receiver.  Fairness
   assumption on acks, explicit: the ack step taken here is DELIVERED - i.e. of the acks the receiver keeps
   emitting (on data, and one per heartbeat interval when idle) one eventually reaches the sender.  Still not
   proved: that the heartbeat timer fires (the driver's exact-window-closure family watches it). *)
Theorem C02_progress_by_ack : forall s, wreach s -> next_recv (base s) < length (assigned (base s)) -> 0 < rspace s ->
  exists ls s', wrun s ls s' /\ length ls <= 5 /\ next_recv (base s') = S (next_recv (base s)).
Proof. exact progress_by_ack. Qed.
Print Assumptions C02_progress_by_ack.

Example C02_window_nonvacuous : exists s, wreach s /\ next_recv (base s) < length (assigned (base s)) /\ rwnd s = 0 /\ win (base s) = 0 /\ 0 < rspace s.
Proof.
  eexists. split.
  - eapply wreach_step; [apply (wreach_init 16 0 7); unfold minWindow, C02_minWindowSize; lia|].
    apply (ws_base _ (LWrite cA)); [apply s_write | reflexivity | reflexivity | reflexivity].
  - cbn. repeat split; lia.
Qed.

(* peers with different MTUs: whatever legal MTU the PEER is configured with (mtu_ok: [1280,1500]), every datagram
   it builds - any segment of any Write with any padding draws, any control segment or ack - fits the buffer that
   readOneSegment hands to ReadFrom, for local MTU 1280, 1400 and 1500, client and server.  The buffer lengths are
   regenerated on every run by a behavioural probe (consts_c02.go runs readOneSegment on underlays with these local
   MTUs and records len(b)); if the constant 1500 shrinks or is replaced by the local MTU this theorem breaks. *)
Theorem C02_peer_mtu_independent : forall peer_mtu mode is_client first n cfg_mid cfg_end s p1 p2 b,
  SizesProofs.mtu_ok peer_mtu -> SizesProofs.mode_ok mode -> (0 <= n)%Z ->
  Sizes.emitted is_client first peer_mtu C14_TransportPacket mode n s ->
  Sizes.draws_ok peer_mtu C14_TransportPacket cfg_mid cfg_end s p1 p2 ->
  In b UdpSizesProofs.read_buf_lens -> (Sizes.dgram_len s p1 p2 <= b)%Z.
Proof. exact UdpSizesProofs.peer_mtu_independent. Qed.
Print Assumptions C02_peer_mtu_independent.

(* ... and a buffer of the minimal legal MTU would truncate a full-size fragment of a peer with the maximal one *)
Theorem C02_local_mtu_buffer_refuted : exists s p1 p2,
  Sizes.emitted true false C14_ServerMaxMTU C14_TransportPacket C14_ModeOff 4000 s /\
  Sizes.draws_ok C14_ServerMaxMTU C14_TransportPacket None None s p1 p2 /\ (Sizes.dgram_len s p1 p2 > C14_ServerMinMTU)%Z.
Proof. exact UdpSizesProofs.local_mtu_buffer_too_small. Qed.
Print Assumptions C02_local_mtu_buffer_refuted.

(* inputData never blocks: in EVERY receiver state every arriving segment is dropped or accepted at once - the
   session's input loop never waits for the application, so the single socket reader shared by all sessions of the
   underlay is never held up by a session whose application does not read; a full window means DROP. *)
Theorem C02_input_never_blocks : forall r d, snd (input_data r d) <> InBlocked.
Proof. exact input_never_blocks. Qed.
Print Assumptions C02_input_never_blocks.

Theorem C02_input_full_window_drops : forall r d, capN <= length (r_buf r) + r_queue r -> input_data r d = (r, InDropped).
Proof. exact input_full_window_drops. Qed.
Print Assumptions C02_input_full_window_drops.

(* the receive-window test is necessary: without it a full recvQueue makes the next segment wait for the application *)
Theorem C02_input_without_window_test_refuted : exists r d, r_queue r <= capN /\ snd (input_data_nocheck r d) = InBlocked.
Proof.
  exists (mkR capN [] capN), (capN, mkC 6 0 [1%N]). split; [cbn [r_queue]; lia|].
  unfold input_data_nocheck, input_body. cbn [r_buf r_queue length].
  pose proof capN_pos.
  destruct (Nat.leb_spec capN 0); [lia|]. rewrite Nat.leb_refl. reflexivity.
Qed.
Print Assumptions C02_input_without_window_test_refuted.

(* the receiver never goes backwards *)
Theorem C02_rank_monotone : forall s l s', lstep s l s' -> next_recv s <= next_recv s'.
Proof. exact next_recv_mono. Qed.
Print Assumptions C02_rank_monotone.

(* ranking under the explicit fairness hypothesis fair_run K (fewer than K transmissions of the awaited segment go
   by without the receiver advancing): K*u such transmissions deliver at least u segments.  K = txCountLimit + 1
   stands for "at most txCountLimit consecutive transmissions of the AWAITED segment are all lost"; the code's
   txCount counts the transmissions of every segment, so the hypothesis is weaker than "the sender never reaches
   txCountLimit" and does not exclude abandonment. *)
Theorem C02_fair_completion : forall K s t s' u, fair_run K s t s' -> K * u <= t -> next_recv s + u <= next_recv s'.
Proof. exact fair_completion. Qed.
Print Assumptions C02_fair_completion.

Theorem C02_fair_completion_txlimit : forall s t s' u,
  fair_run (S txCountLimit) s t s' -> S txCountLimit * u <= t -> next_recv s + u <= next_recv s'.
Proof. exact (fair_completion (S txCountLimit)). Qed.
Print Assumptions C02_fair_completion_txlimit.

Example C02_fair_nonvacuous : exists t s', fair_run 3 (mkSt [cA] 0 0 5 [] [] 0 [] [] 0 0) t s' /\ t = 2 /\ next_recv s' = 1.
Proof.
  eexists. eexists. split; [|split].
  - eapply (fr_cons 3); [cbn; lia | apply (s_sendnew _ cA); cbn; [reflexivity | lia] |].
    eapply (fr_cons 3); [cbn; lia | apply (s_retx _ 0 cA); cbn; [lia | lia | reflexivity] |]. cbn.
    eapply (fr_cons 3); [cbn; lia | apply (s_recvdata _ 0 cA); cbn; auto |]. cbn.
    eapply (fr_cons 3); [cbn; lia | apply (s_move _ cA); cbn; auto |]. cbn.
    apply fr_nil. cbn. lia.
  - reflexivity.
  - reflexivity.
Qed.

(* in an accepted trace the bytes returned by Read at one endpoint are a prefix of the
   bytes handed to Write at the other, for both directions ... *)
Theorem C02_trace_exactly_once : forall tr a, accept tr = inl a ->
  forall X, exists rest, written X tr = readb (negb X) tr ++ rest.
Proof.
  intros tr a H X. apply accept_inv in H. pose proof (snd_written _ _ _ _ _ (ai_snd _ _ H X)) as S1.
  pose proof (rcv_bytes _ _ _ _ _ _ (ai_rcv _ _ H (negb X))) as R4. rewrite negb_involutive in R4.
  exists (concat (e_avail (getE (negb X) a)) ++ bytes_of (skipn (e_nr (getE (negb X) a)) (e_asg (getE X a)))
          ++ concat (e_pend (getE X a))).
  rewrite S1. rewrite <- (firstn_skipn (e_nr (getE (negb X) a)) (e_asg (getE X a))) at 1.
  rewrite bytes_of_app, R4, <- !app_assoc. reflexivity.
Qed.
Print Assumptions C02_trace_exactly_once.

(* ... and equal when the acceptor also accepts the completion claim *)
Theorem C02_trace_complete : forall tr a, accept (tr ++ [EF]) = inl a -> forall X, written X tr = readb (negb X) tr.
Proof.
  intros tr a H X. unfold accept in H. apply run_acc_app in H. destruct H as (a1 & idx1 & H1 & H2).
  apply accept_inv in H1. cbn [run_acc] in H2.
  destruct (acc_step a1 EF) as [a2|] eqn:E; [|discriminate]. apply acc_step_spec in E. inversion E as [| | | | | | Hfin]. subst a2.
  pose proof (snd_written _ _ _ _ _ (ai_snd _ _ H1 X)) as S1.
  pose proof (rcv_bytes _ _ _ _ _ _ (ai_rcv _ _ H1 (negb X))) as R4. rewrite negb_involutive in R4.
  destruct (Hfin X) as (P1 & _ & _). destruct (Hfin (negb X)) as (_ & P2 & P3). rewrite negb_involutive in P3.
  rewrite S1, (all_nil_concat _ P1), app_nil_r. rewrite P3, firstn_all in R4.
  rewrite R4, (all_nil_concat _ P2), app_nil_r. reflexivity.
Qed.
Print Assumptions C02_trace_complete.

(* the payloads on the wire in sequence-number order are a prefix of the written bytes *)
Theorem C02_trace_stream : forall tr a, accept tr = inl a ->
  forall X, exists asg rest, written X tr = bytes_of asg ++ rest /\
    (forall g, In g (emitted X tr) -> is_seq X (g_ty g) = true -> nth_error asg (N.to_nat (g_seq g)) = Some (cont g)) /\
    (forall i, i < length asg -> emitted_seq X tr i).
Proof.
  intros tr a H X. pose proof (ai_snd _ _ (accept_inv _ _ H) X) as Hs.
  exists (e_asg (getE X a)), (concat (e_pend (getE X a))).
  split; [apply (snd_written _ _ _ _ _ Hs) | split; [apply (snd_bound _ _ _ _ _ Hs) | apply (snd_sent _ _ _ _ _ Hs)]].
Qed.
Print Assumptions C02_trace_stream.

(* refinement: per direction D (sender endpoint D, receiver endpoint negb D) an accepted trace is a run of the
   transition system, so the LTS theorems of C02 and C13 speak about the sessions the traces were recorded from *)
Theorem C02_trace_refines_lts : forall tr a, accept tr = inl a -> forall D, exists s,
  reach s /\
  assigned s = e_asg (getE D a) /\ sent_hi s = length (e_asg (getE D a)) /\
  next_recv s = e_nr (getE (negb D) a) /\ rd s = length (readb (negb D) tr) /\
  (forall g, In g (emitted D tr) -> is_seq D (g_ty g) = true -> In (N.to_nat (g_seq g), cont g) (fwd s)) /\
  (forall g, In g (emitted (negb D) tr) -> exists gh, In (N.to_nat (g_unack g), gh) (back s)).
Proof.
  intros tr a H D. destruct (proj2 (accept_sound tr a H) D) as [s Hs]. pose proof (sim_wire _ _ _ _ _ _ Hs) as HW.
  exists s. repeat apply conj.
  - apply (sim_reach _ _ _ _ _ _ Hs).
  - apply (sim_asg _ _ _ _ _ _ Hs).
  - apply (sim_hi _ _ _ _ _ _ Hs).
  - apply (sim_nr _ _ _ _ _ _ Hs).
  - apply (w_read _ _ _ _ _ HW).
  - apply (w_data _ _ _ _ _ HW).
  - apply (w_acks _ _ _ _ _ HW).
Qed.
Print Assumptions C02_trace_refines_lts.

Example C02_trace_nonvacuous : accepts (ex_trace ++ [EF]) = true.
Proof. exact ex_trace_accepted. Qed.
