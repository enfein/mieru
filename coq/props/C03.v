(* C03 - graceful close never turns a partial transfer into a clean end-of-stream.
   Model: model/CloseProto.v (one direction of one session, both transports, close, two-step Read).
   [current_cfg] is the tree as it is now (with fixes/C03-read-eof-before-queued-data.diff and
   fixes/C03-ack-advances-lastsend.diff applied), [prefix_cfg] the pinned tree.

   The desired statement [no_clean_truncation] is FALSE of the code (on UDP by loss or reordering around the close or by a window that stays closed for the
   bounded wait; on TCP only if the output loop does not run at all during the wait): the _refuted theorems give
   the schedules.  The _partial theorems say what holds for every schedule. *)
From Coq Require Import List ZArith NArith Bool.
From M Require Import gen.Consts model.CloseProto proofs.CloseProtoProofs.
Import ListNotations.
Open Scope N_scope.

(* the desired statement, refuted on the current tree (UDP, one lost datagram) *)
Theorem C03_no_clean_truncation_refuted : ~ no_clean_truncation (current_cfg UDP 3 16 0).
Proof.
  intro H. destruct udp_loss_refuted as (sched & st & Hr & Hc & _).
  apply (clean_truncation_not_complete _ _ Hc). destruct Hc as (Hw & He & _). exact (H sched st Hr Hw He).
Qed.
Print Assumptions C03_no_clean_truncation_refuted.

(* UDP, one data datagram lost, nothing else: Close returns normally after the close request has been transmitted
   once, sendBuf is discarded, the peer reads segment 0 and then a clean EOF; 1 and 2 are never retransmitted *)
Theorem C03_udp_loss_refuted :
  exists sched st, run (current_cfg UDP 3 16 0) init sched = Some st /\ clean_truncation (current_cfg UDP 3 16 0) st
                   /\ cph st = CClosed /\ discarded st = false /\ read_so_far st = [0].
Proof. exact udp_loss_refuted. Qed.
Print Assumptions C03_udp_loss_refuted.

(* UDP, nothing lost, nothing duplicated: the close request overtakes two data datagrams and is acted upon at once *)
Theorem C03_udp_reorder_refuted :
  exists sched st, run (current_cfg UDP 3 16 0) init sched = Some st /\ clean_truncation (current_cfg UDP 3 16 0) st
                   /\ read_so_far st = [0].
Proof. exact udp_reorder_refuted. Qed.
Print Assumptions C03_udp_reorder_refuted.

(* UDP, loss-free in-order network, the peer's application has not read yet and its receive window
   (segmentTreeCapacity, here scaled down to 2) is exhausted: the datagram is dropped on arrival and never retransmitted *)
Theorem C03_udp_receive_window_refuted :
  exists sched st, run (mkCfg UDP 3 close_wait_iterations true false 16 0 2 true) init sched = Some st
                   /\ clean_truncation (mkCfg UDP 3 close_wait_iterations true false 16 0 2 true) st /\ discarded st = false
                   /\ gap st = true /\ read_so_far st = [0; 1].
Proof. exact udp_receive_window_refuted. Qed.
Print Assumptions C03_udp_receive_window_refuted.

(* UDP, loss-free network, send window closed for the whole bounded wait: the unsent rest of the queue is
   discarded, the close request is written directly *)
Theorem C03_backpressure_udp_refuted :
  exists sched st, run (current_cfg UDP 3 1 0) init sched = Some st /\ clean_truncation (current_cfg UDP 3 1 0) st
                   /\ discarded st = true /\ ticks st = close_wait_iterations /\ read_so_far st = [0].
Proof.
  exists w_udp_window. eexists. split.
  { eapply run_through_wait; [vm_compute; reflexivity | reflexivity .. | discriminate | vm_compute; reflexivity]. }
  repeat split. exists [1; 2]. split; [discriminate | reflexivity].
Qed.
Print Assumptions C03_backpressure_udp_refuted.

(* TCP: the same needs an output loop that never takes oLock during the wait ... *)
Theorem C03_backpressure_tcp_starved_refuted :
  exists sched st, run (current_cfg TCP 3 0 0) init sched = Some st /\ clean_truncation (current_cfg TCP 3 0 0) st
                   /\ discarded st = true /\ read_so_far st = [].
Proof.
  exists w_tcp_starved. eexists. split.
  { eapply run_through_wait; [vm_compute; reflexivity | reflexivity .. | discriminate | vm_compute; reflexivity]. }
  repeat split. exists [0; 1; 2]. split; [discriminate | reflexivity].
Qed.
Print Assumptions C03_backpressure_tcp_starved_refuted.

(* ... because network back-pressure alone keeps the loop inside its drain, where the direct write is not enabled *)
Theorem C03_backpressure_tcp_harmless : forall c st, olock st = true -> step c st CForce = None.
Proof. exact force_disabled_under_olock. Qed.
Print Assumptions C03_backpressure_tcp_harmless.

(* a bounded pipe that is full for longer than the wait: Close stays blocked, nothing is discarded, the peer reads everything *)
Example C03_backpressure_tcp_example :
  exists st, run (current_cfg TCP 3 0 1) init w_tcp_backpressure = Some st /\ rd st = REof /\ complete (current_cfg TCP 3 0 1) st
             /\ discarded st = false /\ ticks st = close_wait_iterations.
Proof.
  eexists. split.
  { eapply run_through_wait; [vm_compute; reflexivity | reflexivity .. | discriminate | vm_compute; reflexivity]. }
  repeat split; reflexivity.
Qed.

(* pinned tree: Read's emptiness test, then the last segment and the close arrive, then the select takes the
   closed case: EOF with a segment still queued.  Repaired by fixes/C03-read-eof-before-queued-data.diff. *)
Theorem C03_tcp_read_race_refuted_before_fix :
  exists sched st, run (prefix_cfg TCP 1 0 0) init sched = Some st /\ clean_truncation (prefix_cfg TCP 1 0 0) st
                   /\ rqueue st = [0] /\ discarded st = false.
Proof. exact tcp_read_race_refuted_before_fix. Qed.
Print Assumptions C03_tcp_read_race_refuted_before_fix.

Example C03_tcp_read_race_now :
  exists st, run (current_cfg TCP 1 0 0) init (w_tcp_race ++ [RTest; RTest; RWaitClosed]) = Some st /\ rd st = REof
             /\ complete (current_cfg TCP 1 0 0) st.
Proof. eexists. split; [vm_compute; reflexivity|]. split; reflexivity. Qed.

(* pinned tree: an ack passing through output() stamps lastSend with the queued close request's number; Close returns
   after one iteration and discards unsent data and the close request.  Repaired by fixes/C03-ack-advances-lastsend.diff. *)
Theorem C03_udp_ack_stamp_refuted_before_fix :
  exists sched st, run (prefix_cfg UDP 3 1 0) init sched = Some st /\ cph st = CClosed /\ ticks st = 0 /\ discarded st = true
                   /\ udpnet st = [Data 0] /\ queue st = [].
Proof. exact udp_ack_stamp_refuted_before_fix. Qed.
Print Assumptions C03_udp_ack_stamp_refuted_before_fix.

(* what holds for EVERY schedule, both transports, two-step Read included (current tree), or any tree if the schedule
   treats Read as atomic: if the peer acted on the close request when all lower-numbered segments had arrived in
   order (gap = false: nothing lost or overtaken by the close request, nothing discarded unsent), the stream was
   in order (ooo = false; always on UDP) and no input error occurred, EOF implies that everything has been read *)
Theorem C03_in_order_close_partial : forall c sched st,
  run c init sched = Some st ->
  c_retest c = true \/ atomic_reads sched = true ->
  rd st = REof -> rerr st = false -> gap st = false -> ooo st = false ->
  complete c st.
Proof. exact eof_implies_complete. Qed.
Print Assumptions C03_in_order_close_partial.

Theorem C03_udp_lossless_partial : forall n win sched st,
  run (current_cfg UDP n win 0) init sched = Some st ->
  rd st = REof -> rerr st = false -> gap st = false -> ooo st = false ->
  complete (current_cfg UDP n win 0) st.
Proof. intros n win sched st H. apply (eof_implies_complete _ _ _ H). left. reflexivity. Qed.
Print Assumptions C03_udp_lossless_partial.

Theorem C03_tcp_drained_partial : forall n cap sched st,
  run (current_cfg TCP n 0 cap) init sched = Some st ->
  rd st = REof -> rerr st = false -> gap st = false -> ooo st = false ->
  complete (current_cfg TCP n 0 cap) st.
Proof. intros n cap sched st H. apply (eof_implies_complete _ _ _ H). left. reflexivity. Qed.
Print Assumptions C03_tcp_drained_partial.

Example C03_partial_nonvacuous :
  (exists st, run (current_cfg UDP 3 16 0) init w_udp_ok = Some st /\ rd st = REof /\ rerr st = false /\ gap st = false /\ ooo st = false
              /\ complete (current_cfg UDP 3 16 0) st) /\
  (exists st, run (current_cfg TCP 3 0 0) init w_tcp_ok = Some st /\ rd st = REof /\ rerr st = false /\ gap st = false /\ ooo st = false
              /\ discarded st = false /\ complete (current_cfg TCP 3 0 0) st).
Proof. split; eexists; (split; [vm_compute; reflexivity|]); repeat split; reflexivity. Qed.

(* Read hands out the segments in order and without gaps: what has been read and what is queued are 0 .. nextRecv-1
   (ooo = false: the TCP stream delivered in order) *)
Theorem C03_reads_are_a_prefix : forall c sched st,
  run c init sched = Some st -> c_retest c = true -> ooo st = false ->
  read_so_far st ++ rqueue st = iota 0 (N.to_nat (nextRecv st)).
Proof. exact reads_are_a_prefix. Qed.
Print Assumptions C03_reads_are_a_prefix.

(* abnormal close: while inputErr is closed and closedChan is not, no step makes Read return EOF ... *)
Theorem C03_error_is_not_eof : forall c st ch st',
  step c st ch = Some st' -> rerr st = true -> rclosed st = false -> rd st <> REof -> rd st' <> REof \/ rclosed st' = true.
Proof.
  intros c st ch st' H _ Hc Hr. left. intro E. destruct (eof_needs_closed c st ch st' H E); congruence.
Qed.
Print Assumptions C03_error_is_not_eof.

(* ... but closeWithError(err) closes closedChan right afterwards, and a Read that reaches its select then may take
   either case: an input error can surface as a clean EOF after a strict prefix *)
Theorem C03_error_then_eof_refuted :
  exists sched st, run (current_cfg TCP 2 0 0) init sched = Some st /\ rerr st = true /\ rd st = REof /\ read_so_far st = [0]
                   /\ written st = c_n (current_cfg TCP 2 0 0).
Proof.
  exists w_err_eof. eexists. split; [vm_compute; reflexivity|]. repeat split; reflexivity.
Qed.
Print Assumptions C03_error_then_eof_refuted.

(* hand-off from the underlay event loop to the session through the bounded channel recvChan (blocking send, FIFO): for
   every capacity and every interleaving of the two loops, once the channel is empty the session has handled the segments
   in dispatch order, as the delivery-time transitions DTcp/DUdp of the model do: a close request is acted upon only after
   everything dispatched before it.  (Only the two loops are in this statement, not the closer or Read.) *)
Theorem C03_handoff_in_order : forall c cap evs st st',
  hrun c cap (st, []) evs = Some (st', []) ->
  st' = fold_left (recv_input c) (dispatched evs) st.
Proof. exact handoff_in_order. Qed.
Print Assumptions C03_handoff_in_order.

(* ... and what goes wrong when a close request may bypass a full channel (closing the session directly from the event
   loop): in-order, loss-free arrival, yet the close request is acted upon with a gap and the held segment is dropped *)
Theorem C03_handoff_bypass_refuted :
  exists evs st, hrun_bypass (current_cfg TCP 2 0 0) 1 (init, []) evs = Some (st, []) /\ dispatched evs = [Data 0; Data 1; CloseReq 2] /\
                 rclosed st = true /\ gap st = true /\ rqueue st = [0] /\ nextRecv st = 1 /\
                 (exists st2, hrun (current_cfg TCP 2 0 0) 1 (init, []) (evs ++ [HInput]) = None /\
                              hrun (current_cfg TCP 2 0 0) 2 (init, []) (evs ++ [HInput; HInput]) = Some (st2, []) /\ gap st2 = false /\ rqueue st2 = [0; 1]).
Proof. exact handoff_bypass_refuted. Qed.
Print Assumptions C03_handoff_bypass_refuted.

(* the code, every schedule: while a segment is between DeleteMin and the completion of its output(), oLock is held and the fallback
   is not enabled: it can neither overtake that segment nor drop what was queued behind it before Close *)
Theorem C03_tcp_close_fallback_never_overtakes_inflight : forall c sched st,
  is_tcp c = true -> c_lockdrain c = true -> run c init sched = Some st -> inflight st <> None ->
  olock st = true /\ step c st CForce = None.
Proof. exact tcp_close_fallback_never_overtakes_inflight. Qed.
Print Assumptions C03_tcp_close_fallback_never_overtakes_inflight.

(* TCP, every schedule: the fallback is the only step that discards data; the regular end of the wait (lastSend >= closeRequestSeq)
   never does *)
Theorem C03_tcp_only_fallback_discards : forall c sched st ch st',
  is_tcp c = true -> run c init sched = Some st -> step c st ch = Some st' -> ch <> CForce -> discarded st' = discarded st.
Proof. exact tcp_only_fallback_discards. Qed.
Print Assumptions C03_tcp_only_fallback_discards.

(* the variant: segment 0 sits in a stalled write for the whole wait with 1 and 2 queued behind it; when the stall ends the fallback
   gets in before the next DeleteMin.  Nothing is lost on the wire; the peer reads [0] and a clean EOF.
   Relation to C03_backpressure_tcp_starved_refuted: THAT schedule contains no OStart/ODeq at all between Close and the expiry of the
   wait (the notified output goroutine does not run for a whole second) and needs no stall.  THIS schedule has the loop inside output() (ODeq done, OOut pending) when the wait expires;
   C03_tcp_close_fallback_never_overtakes_inflight excludes it for the code and it exists only with c_lockdrain = false. *)
Theorem C03_tcp_unlocked_output_refuted :
  exists sched st, run (mkCfg TCP 3 close_wait_iterations true false 0 0 segment_tree_capacity false) init sched = Some st
                   /\ clean_truncation (mkCfg TCP 3 close_wait_iterations true false 0 0 segment_tree_capacity false) st
                   /\ discarded st = true /\ tcpnet st = [] /\ read_so_far st = [0] /\ ticks st = close_wait_iterations.
Proof. exact tcp_unlocked_output_refuted. Qed.
Print Assumptions C03_tcp_unlocked_output_refuted.

(* the same stall on the code as it is: the loop holds oLock (OStart), the fallback has to wait until the queue is empty,
   the close request it then writes is a harmless duplicate *)
Example C03_tcp_stall_now :
  (exists st, run (current_cfg TCP 3 0 0) init ([CWrite; CWrite; CWrite; CClose; OStart; ODeq] ++ repeat_choice CTick (N.to_nat close_wait_iterations) ++ [OOut]) = Some st
              /\ cph st = CExpired /\ queue st = [Data 1; Data 2; CloseReq 3] /\ step (current_cfg TCP 3 0 0) st CForce = None) /\
  (exists st, run (current_cfg TCP 3 0 0) init w_tcp_stall_now = Some st /\ rd st = REof /\ complete (current_cfg TCP 3 0 0) st /\ discarded st = false).
Proof.
  split; eexists; (split; [eapply run_through_wait; [vm_compute; reflexivity | reflexivity .. | discriminate | vm_compute; reflexivity]|]);
    repeat split; reflexivity.
Qed.

(* the sender never lets a successful Write take the last slot of its send queue: after every history of Writes (any
   fragment counts, a Write that is not admitted waits) and drains, closeWithError's Insert of the close request succeeds,
   so a graceful Close queues the request BEHIND the data instead of writing it at once and discarding the queue; with the
   admission test Remaining() >= n instead of Remaining() > n a history exists after which the queue is full *)
Theorem C03_close_request_always_queued : forall evs : list qev,
  q_close_queued segment_tree_capacity (q_run true segment_tree_capacity evs) = true.
Proof. exact close_request_always_queued. Qed.
Print Assumptions C03_close_request_always_queued.

Theorem C03_close_request_slot_needs_strict_admission_refuted :
  exists evs, q_close_queued segment_tree_capacity (q_run false segment_tree_capacity evs) = false.
Proof. exists [QWrite 4071; QWrite 25]. vm_compute. reflexivity. Qed.
Print Assumptions C03_close_request_slot_needs_strict_admission_refuted.
