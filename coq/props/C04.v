(* C04 - tampering with bytes on the wire never changes what the application reads.
   Closed statements over model/TcpStream.v (the TCP receiver of C01) and model/Tamper.v (sender box sequence, UDP
   datagram parser).  The AEAD of one key (open), the metadata layout and the low entropy codec are universally
   quantified; INT-CTXT is a premise of every theorem that needs it, never an axiom.

   Three parts of the property are FALSE of the code as it is and are refuted on the faithful model
   (C04_tcp_prefix_refuted, C04_udp_same_payload_refuted, C04_udp_reflection_closes_session_refuted); beside them stand
   the strongest statements that hold. *)
From Coq Require Import List NArith.
From M Require Import model.TcpStream model.Tamper proofs.TamperProofs.
Import ListNotations.
Open Scope N_scope.

(* whatever bytes arrive in whatever state: the metadata of every segment handed on is the parse of a plaintext sealed
   under some nonce n, and its payload is empty or was sealed under n + 1 (authentic).  [sealed] = what holders of the key
   sealed: this direction, the other one, other connections of the same user; the statement is as strong as the [sealed]
   one puts in. *)
Theorem C04_tcp_authentic :
  forall (open : list N -> list N -> option (list N)) (parse_meta : list N -> option minfo)
         (le_decode : leparams -> N -> list N -> option (list N)) (sealed : list N -> list N -> Prop),
    (forall n c p, open n c = Some p -> sealed n p) ->
    forall (st : rstate) (chunk : list N),
      Forall (authentic parse_meta sealed) (fst (feed open parse_meta le_decode st chunk)).
Proof. exact tcp_authentic. Qed.
Print Assumptions C04_tcp_authentic.

(* TCP prefix, the part that holds: whatever follows the sender's 24 byte nonce (flips, insertions, deletions,
   truncation, swapped / spliced / foreign segments), a prefix of the sent segments is delivered; paddings count by
   length only (deliver does not contain their contents). *)
Theorem C04_tcp_prefix_partial :
  forall (open : list N -> list N -> option (list N)) (parse_meta : list N -> option minfo)
         (le_decode : leparams -> N -> list N -> option (list N)) (marshal_meta : minfo -> list N)
         (le_len : leparams -> N -> N) (segs : list segment) (n0 : list N),
    (forall n c p, open n c = Some p ->
       exists k, n = nonce_add k n0 /\ nth_error (stream_boxes marshal_meta le_len segs) k = Some p) ->
    (forall i k, (i <= length (stream_boxes marshal_meta le_len segs))%nat ->
       (k < length (stream_boxes marshal_meta le_len segs))%nat -> nonce_add i n0 = nonce_add k n0 -> i = k) ->
    (forall s, In s segs -> parse_meta (marshal_meta (fill_meta le_len s)) = Some (fill_meta le_len s) /\
                            (mi_plen (fill_meta le_len s) =? 0) = is_nil (s_payload s)) ->
    length n0 = nonceLen ->
    forall rest, exists j,
      fst (feed open parse_meta le_decode r_init (n0 ++ rest)) = map (deliver le_len) (firstn j segs).
Proof.
  intros open parse_meta le_decode marshal_meta le_len segs n0 Ho Hd Hs Hn rest.
  exact (tcp_infix_from_boundary open parse_meta le_decode marshal_meta le_len segs n0 Ho Hd Hs Hn [] segs rest eq_refl).
Qed.
Print Assumptions C04_tcp_prefix_partial.

(* before the 24 byte nonce header is complete nothing is handed on *)
Theorem C04_tcp_short_nothing :
  forall (open : list N -> list N -> option (list N)) (parse_meta : list N -> option minfo)
         (le_decode : leparams -> N -> list N -> option (list N)) (s' : list N),
    (length s' < nonceLen)%nat -> fst (feed open parse_meta le_decode r_init s') = [].
Proof. exact tcp_short_nothing. Qed.
Print Assumptions C04_tcp_short_nothing.

(* TCP prefix, full statement REFUTED: first segment removed and the nonce header rewritten to n0 + 1; what is
   delivered is not a prefix of what was sent *)
Theorem C04_tcp_prefix_refuted :
  exists (open : list N -> list N -> option (list N)) (parse_meta : list N -> option minfo)
         (le_decode : leparams -> N -> list N -> option (list N)) (marshal_meta : minfo -> list N)
         (le_len : leparams -> N -> N) (segs : list segment) (n0 s' : list N),
    (forall n c p, open n c = Some p ->
       exists k, n = nonce_add k n0 /\ nth_error (stream_boxes marshal_meta le_len segs) k = Some p) /\
    (forall i k, (i <= length (stream_boxes marshal_meta le_len segs))%nat ->
       (k < length (stream_boxes marshal_meta le_len segs))%nat -> nonce_add i n0 = nonce_add k n0 -> i = k) /\
    (forall s, In s segs -> parse_meta (marshal_meta (fill_meta le_len s)) = Some (fill_meta le_len s) /\
                            (mi_plen (fill_meta le_len s) =? 0) = is_nil (s_payload s)) /\
    length n0 = nonceLen /\
    ~ exists j, fst (feed open parse_meta le_decode r_init s') = map (deliver le_len) (firstn j segs).
Proof. exact tcp_prefix_refuted. Qed.
Print Assumptions C04_tcp_prefix_refuted.

(* how far the refuted prefix statement fails: a receiver that starts on the sender's nonce advanced over the boxes of
   the leading segments [pre] (tcp-nonce-header-rewrite-skips-leading-segments, DESIGN.md 10.3; pre = [] is the prefix
   theorem) delivers a contiguous run of the sender's segments from that boundary *)
Theorem C04_tcp_infix_from_boundary :
  forall (open : list N -> list N -> option (list N)) (parse_meta : list N -> option minfo)
         (le_decode : leparams -> N -> list N -> option (list N)) (marshal_meta : minfo -> list N)
         (le_len : leparams -> N -> N) (segs : list segment) (n0 : list N),
    (forall n c p, open n c = Some p ->
       exists k, n = nonce_add k n0 /\ nth_error (stream_boxes marshal_meta le_len segs) k = Some p) ->
    (forall i k, (i <= length (stream_boxes marshal_meta le_len segs))%nat ->
       (k < length (stream_boxes marshal_meta le_len segs))%nat -> nonce_add i n0 = nonce_add k n0 -> i = k) ->
    (forall s, In s segs -> parse_meta (marshal_meta (fill_meta le_len s)) = Some (fill_meta le_len s) /\
                            (mi_plen (fill_meta le_len s) =? 0) = is_nil (s_payload s)) ->
    length n0 = nonceLen ->
    forall pre l rest, segs = pre ++ l ->
      exists m, fst (feed open parse_meta le_decode r_init
                       (nonce_add (length (stream_boxes marshal_meta le_len pre)) n0 ++ rest)) =
                map (deliver le_len) (firstn m l).
Proof. exact tcp_infix_from_boundary. Qed.
Print Assumptions C04_tcp_infix_from_boundary.

(* cross-connection splice: the downstream bytes of ANOTHER connection of the same user (same key: every box opens), whole
   or from a segment boundary, followed by bytes of which by the first premise only that connection's boxes open, hand
   NOTHING to a session whose id is not among that connection's.  Distinct live session ids of one user are what the
   code relies on (drawn at random per dial); the driver checks it on muxes created in the same second. *)
Theorem C04_tcp_cross_connection_splice_refused :
  forall (open : list N -> list N -> option (list N)) (parse_meta : list N -> option minfo)
         (le_decode : leparams -> N -> list N -> option (list N)) (marshal_meta : minfo -> list N)
         (le_len : leparams -> N -> N) (segs : list segment) (n0 : list N),
    (forall n c p, open n c = Some p ->
       exists k, n = nonce_add k n0 /\ nth_error (stream_boxes marshal_meta le_len segs) k = Some p) ->
    (forall i k, (i <= length (stream_boxes marshal_meta le_len segs))%nat ->
       (k < length (stream_boxes marshal_meta le_len segs))%nat -> nonce_add i n0 = nonce_add k n0 -> i = k) ->
    (forall s, In s segs -> parse_meta (marshal_meta (fill_meta le_len s)) = Some (fill_meta le_len s) /\
                            (mi_plen (fill_meta le_len s) =? 0) = is_nil (s_payload s)) ->
    length n0 = nonceLen ->
    forall (client : bool) (sidB : N),
      Forall (fun s => mi_sid (s_meta s) <> sidB) segs ->
      forall pre l rest, segs = pre ++ l ->
        session_in client sidB (fst (feed open parse_meta le_decode r_init
                                       (nonce_add (length (stream_boxes marshal_meta le_len pre)) n0 ++ rest))) = [].
Proof. exact tcp_cross_connection_splice_refused. Qed.
Print Assumptions C04_tcp_cross_connection_splice_refused.

(* no resynchronisation after a failure, however the rest is chunked *)
Theorem C04_tcp_no_resync :
  forall (open : list N -> list N -> option (list N)) (parse_meta : list N -> option minfo)
         (le_decode : leparams -> N -> list N -> option (list N)) (a b : list N),
    r_failed (snd (feed open parse_meta le_decode r_init a)) = true ->
    feed open parse_meta le_decode r_init (a ++ b) = feed open parse_meta le_decode r_init a.
Proof. exact tcp_no_resync. Qed.
Print Assumptions C04_tcp_no_resync.

(* three segments under the table AEAD: the genuine stream is delivered completely; a replaced tag byte, swapped /
   duplicated / dropped segments deliver the segments before the tamper point and fail for ever; replaced padding
   bytes change nothing; the rewritten header skips the first segment *)
Theorem C04_tcp_examples :
  ex_feed ex_stream = (map ex_deliver ex_segs, mkR [] (Some (nonce_add 5 ex_n0)) false) /\
  ex_feed ex_flip = (map ex_deliver [ex_s1], mkR [] (Some (nonce_add 1 ex_n0)) true) /\
  (fst (ex_feed (firstn 74 ex_stream ++ ex_b3 ++ ex_b2)) = map ex_deliver [ex_s1] /\
   r_failed (snd (ex_feed (firstn 74 ex_stream ++ ex_b3 ++ ex_b2))) = true) /\
  (fst (ex_feed (firstn 145 ex_stream ++ ex_b2 ++ ex_b3)) = map ex_deliver [ex_s1; ex_s2] /\
   r_failed (snd (ex_feed (firstn 145 ex_stream ++ ex_b2 ++ ex_b3))) = true) /\
  (fst (ex_feed (firstn 74 ex_stream ++ ex_b3)) = map ex_deliver [ex_s1] /\
   r_failed (snd (ex_feed (firstn 74 ex_stream ++ ex_b3))) = true) /\
  (ex_padchg <> ex_stream /\ ex_feed ex_padchg = ex_feed ex_stream) /\
  fst (ex_feed ex_skiphead) = map ex_deliver [ex_s2; ex_s3].
Proof.
  split; [vm_compute; reflexivity|].
  split; [vm_compute; reflexivity|].
  split; [split; vm_compute; reflexivity|].
  split; [split; vm_compute; reflexivity|].
  split; [split; vm_compute; reflexivity|].
  split; [split; [vm_compute; discriminate|vm_compute; reflexivity]|].
  exact ex_skiphead_delivers.
Qed.
Print Assumptions C04_tcp_examples.

(* the table AEAD used by the examples and by the correspondence run satisfies the INT-CTXT premise *)
Theorem C04_table_aead_sound :
  forall (boxes : list (list N)) (n n' c p : list N),
    tab_open (tcp_tab n boxes) n' c = Some p -> exists k, n' = nonce_add k n /\ nth_error boxes k = Some p.
Proof. exact tab_open_tcp_sound. Qed.
Print Assumptions C04_table_aead_sound.

(* padding contents are never looked at.  Both lists are serialized honestly; seal being a function, that is the same
   as overwriting padding bytes on the wire.  The premise is the round trip C01_feed_serialize proves for ok = seg_ok
   (a premise here, so that C01's codec premises do not enter). *)
Theorem C04_padding_only_changes_nothing :
  forall (seal : list N -> list N -> list N) (open : list N -> list N -> option (list N))
         (marshal_meta : minfo -> list N) (parse_meta : list N -> option minfo)
         (le_len : leparams -> N -> N) (le_encode : leparams -> bool -> list N -> list N)
         (le_decode : leparams -> N -> list N -> option (list N)) (ok : segment -> Prop),
    (forall segs n, Forall ok segs -> length n = nonceLen ->
       fst (feed open parse_meta le_decode r_init (serialize seal marshal_meta le_len le_encode false n segs)) =
       map (deliver le_len) segs) ->
    forall (segs segs' : list segment) (n : list N),
      Forall ok segs -> Forall ok segs' -> Forall2 same_but_pad segs segs' -> length n = nonceLen ->
      fst (feed open parse_meta le_decode r_init (serialize seal marshal_meta le_len le_encode false n segs')) =
      fst (feed open parse_meta le_decode r_init (serialize seal marshal_meta le_len le_encode false n segs)) /\
      fst (feed open parse_meta le_decode r_init (serialize seal marshal_meta le_len le_encode false n segs)) =
      map (deliver le_len) segs.
Proof.
  intros seal open marshal_meta parse_meta le_len le_encode le_decode ok round_trip segs segs' n Hok Hok' H2 Hn.
  rewrite (round_trip segs n Hok Hn), (round_trip segs' n Hok' Hn). split; [|reflexivity].
  symmetry. exact (same_but_pad_deliver le_len segs segs' H2).
Qed.
Print Assumptions C04_padding_only_changes_nothing.

(* low entropy: the body is decoded first, the tag bytes go unchanged into the box that is opened.  An accepted body is
   THE canonical encoding of what is opened, so a tampered encoding fails to decode or yields another ciphertext, which
   then has to pass open.  Canonicity is C17_canonical. *)
Theorem C04_le_decode_before_open :
  forall (le_encode : leparams -> bool -> list N -> list N)
         (le_decode : leparams -> N -> list N -> option (list N)),
    (forall lp e enc ct, le_decode lp e enc = Some ct -> exists pb, enc = le_encode lp pb ct) ->
    forall (mi : minfo) (body : list N),
      is_le (mi_proto mi) = true ->
      match le_unwrap le_decode mi body with
      | None => le_decode (mi_le mi) (mi_elen mi) (firstn (N.to_nat (mi_plen mi)) body) = None
      | Some box =>
          exists ct pb,
            box = ct ++ skipn (N.to_nat (mi_plen mi)) body /\
            firstn (N.to_nat (mi_plen mi)) body = le_encode (mi_le mi) pb ct
      end.
Proof. exact le_decode_before_open. Qed.
Print Assumptions C04_le_decode_before_open.

(* truncation and extension of a datagram with the same (authenticated) metadata are rejected *)
Theorem C04_udp_size_exact :
  forall (open : list N -> list N -> option (list N)) (parse_meta : list N -> option minfo)
         (le_decode : leparams -> N -> list N -> option (list N)) (d : list N) (mi : minfo) (pl : list N),
    udp_parse open parse_meta le_decode d = Some (mi, pl) -> length d = udp_total mi.
Proof. exact udp_size_exact. Qed.
Print Assumptions C04_udp_size_exact.

(* UDP, the part that holds: a datagram that is not discarded has the nonce, the metadata and the length of one a
   registered peer sealed, and as payload that datagram's payload - OR its marshalled metadata: both boxes are sealed
   under the same nonce.  The mirror swap (the payload box in the place of the metadata box) is excluded by the fourth
   premise, a condition on what applications SEND, not on the AEAD: no sent payload parses as metadata. *)
Theorem C04_udp_drop_or_same_partial :
  forall (open : list N -> list N -> option (list N)) (parse_meta : list N -> option minfo)
         (le_decode : leparams -> N -> list N -> option (list N)) (marshal_meta : minfo -> list N)
         (le_len : leparams -> N -> N) (sent : list (list N * segment)),
    (forall n c p, open n c = Some p -> exists s, In (n, s) sent /\ In p (seg_boxes marshal_meta le_len s)) ->
    (forall n s1 s2, In (n, s1) sent -> In (n, s2) sent -> s1 = s2) ->
    (forall n s, In (n, s) sent -> parse_meta (marshal_meta (fill_meta le_len s)) = Some (fill_meta le_len s) /\
                                   (mi_plen (fill_meta le_len s) =? 0) = is_nil (s_payload s)) ->
    (forall n s, In (n, s) sent -> is_nil (s_payload s) = false -> parse_meta (s_payload s) = None) ->
    forall d,
      udp_parse open parse_meta le_decode d = None \/
      exists s pl, In (firstn nonceLen d, s) sent /\
        udp_parse open parse_meta le_decode d = Some (fill_meta le_len s, pl) /\
        (pl = s_payload s \/ pl = marshal_meta (fill_meta le_len s)) /\
        length d = udp_total (fill_meta le_len s).
Proof.
  intros open parse_meta le_decode marshal_meta le_len sent open_sound nonce_once sent_ok payload_not_meta d.
  destruct (udp_parse open parse_meta le_decode d) as [[mi pl]|] eqn:H; [right|left; reflexivity].
  pose proof (udp_size_exact _ _ _ _ _ _ H) as Hsz.
  destruct (udp_parse_some _ _ _ _ _ _ H) as (_ & c & mp & Ho & Hp & Hb). apply udp_body_some in Hb as [_ Hpl].
  destruct (udp_meta_of_sent _ _ _ _ _ open_sound sent_ok payload_not_meta _ _ _ _ Ho Hp) as (s & Hin & ->).
  exists s, pl. split; [exact Hin|]. split; [reflexivity|]. split; [|exact Hsz].
  exact (udp_payload_of_sent _ _ _ _ _ open_sound nonce_once sent_ok _ _ _ Hin Hpl).
Qed.
Print Assumptions C04_udp_drop_or_same_partial.

(* UDP, "payload equal to the sealed one" REFUTED: a datagram with a 32 byte payload whose payload box is replaced by
   its own metadata box is accepted with the marshalled metadata as payload *)
Theorem C04_udp_same_payload_refuted :
  exists (open : list N -> list N -> option (list N)) (parse_meta : list N -> option minfo)
         (le_decode : leparams -> N -> list N -> option (list N)) (marshal_meta : minfo -> list N)
         (le_len : leparams -> N -> N) (sent : list (list N * segment)) (d : list N),
    (forall n c p, open n c = Some p -> exists s, In (n, s) sent /\ In p (seg_boxes marshal_meta le_len s)) /\
    (forall n s1 s2, In (n, s1) sent -> In (n, s2) sent -> s1 = s2) /\
    (forall n s, In (n, s) sent -> parse_meta (marshal_meta (fill_meta le_len s)) = Some (fill_meta le_len s) /\
                                   (mi_plen (fill_meta le_len s) =? 0) = is_nil (s_payload s)) /\
    (forall n s, In (n, s) sent -> is_nil (s_payload s) = false -> parse_meta (s_payload s) = None) /\
    exists mi pl, udp_parse open parse_meta le_decode d = Some (mi, pl) /\
      ~ exists s, In (firstn nonceLen d, s) sent /\ pl = s_payload s.
Proof. exact udp_same_payload_refuted. Qed.
Print Assumptions C04_udp_same_payload_refuted.

(* non-vacuity on a concrete datagram: genuine accepted; one byte shorter, one byte longer, a flipped payload byte,
   a flipped nonce byte are discarded; replaced padding bytes change nothing *)
Theorem C04_udp_examples :
  ex_uparse ex_dgram = Some (ex_deliver ex_u) /\
  (ex_uparse (removelast ex_dgram) = None /\ ex_uparse (ex_dgram ++ [0]) = None /\
   ex_uparse (splice 100 1 [0] ex_dgram) = None /\ ex_uparse (splice 3 1 [0] ex_dgram) = None /\
   ex_uparse (splice 72 2 [1; 2] ex_dgram) = ex_uparse ex_dgram).
Proof. vm_compute. repeat apply conj; reflexivity. Qed.
Print Assumptions C04_udp_examples.

(* reflection: both directions of a session share key and session id, so a box sealed by the receiver's OWN side opens
   (UDP: explicit nonce; TCP: behind a rewritten nonce header).  Session.input refuses it by its authenticated type.
   Nothing about the receivers enters: this is session_in_not_own, for the two lists the transports produce. *)
Theorem C04_reflection_refused :
  forall (open : list N -> list N -> option (list N)) (parse_meta : list N -> option minfo)
         (le_decode : leparams -> N -> list N -> option (list N)) (client : bool) (sid : N),
    (forall s' : list N,
       Forall (fun r : rseg => own_side client (mi_proto (fst r)) = false)
              (session_in client sid (fst (feed open parse_meta le_decode r_init s')))) /\
    (forall ds : list (list N),
       Forall (fun r : rseg => own_side client (mi_proto (fst r)) = false)
              (session_in client sid (udp_recv_all open parse_meta le_decode ds))).
Proof. exact reflection_refused. Qed.
Print Assumptions C04_reflection_refused.

(* non-vacuity: with the shared key in the table the client's receiver OPENS its own second segment behind its own
   nonce + 1, and the session hands nothing to the application; the genuine server stream is handed on completely *)
Theorem C04_reflection_example :
  fst (feed ex_open2 (meta_parse_c ex_now) le_decode_id r_init ex_reflect) = [ex_deliver ex_c2] /\
  session_in true 77 (fst (feed ex_open2 (meta_parse_c ex_now) le_decode_id r_init ex_reflect)) = [] /\
  session_in true 77 (fst (feed ex_open2 (meta_parse_c ex_now) le_decode_id r_init ex_stream)) = map ex_deliver ex_segs.
Proof. vm_compute. repeat apply conj; reflexivity. Qed.
Print Assumptions C04_reflection_example.

(* genuine sequenced segments in any order, any of them missing, duplicated or late, the close anywhere: nothing behind
   a missing sequence number is ever released, also not by a close *)
Theorem C04_udp_no_release_across_gap :
  forall (sent : list (list N)) (evs : list uevent),
    Forall (genuine sent) evs -> u_q (u_run evs) = firstn (u_next (u_run evs)) sent.
Proof. exact udp_no_release_across_gap. Qed.
Print Assumptions C04_udp_no_release_across_gap.

(* segment 1 missing, 2 and 3 parked, the close arrives, then the retransmission of 1: only segment 0 is released *)
Theorem C04_udp_gap_example :
  u_q (u_run [UArrive 0 [1]; UArrive 2 [3]; UArrive 3 [4]; UClose; UArrive 1 [2]]) = [[1]] /\
  u_q (u_run [UArrive 0 [1]; UArrive 2 [3]; UArrive 3 [4]; UArrive 1 [2]; UClose]) = [[1]; [2]; [3]; [4]].
Proof. vm_compute. split; reflexivity. Qed.
Print Assumptions C04_udp_gap_example.

(* "a refused datagram leaves the session as if it had been lost" is FALSE of the code: the receiver's own data datagram
   opens (shared key, explicit nonce), carries the session id, is refused by Session.input, and that refusal ends the
   session.  Witness: server datagram, reflected client datagram, server datagram: only the first is handed on. *)
Theorem C04_udp_reflection_closes_session_refuted :
  exists (op : list N -> list N -> option (list N)) (pm : list N -> option minfo)
         (ld : leparams -> N -> list N -> option (list N)) (client : bool) (sid : N)
         (ds1 : list (list N)) (d : list N) (ds2 : list (list N)) (r : rseg),
    udp_parse op pm ld d = Some r /\ own_side client (mi_proto (fst r)) = true /\ mi_sid (fst r) = sid /\
    session_in client sid (udp_recv_all op pm ld (ds1 ++ d :: ds2)) <>
    session_in client sid (udp_recv_all op pm ld (ds1 ++ ds2)).
Proof. exact udp_reflection_closes_session_refuted. Qed.
Print Assumptions C04_udp_reflection_closes_session_refuted.

(* a second copy of ANY datagram handed to a session - data, open request / response (sequence number 0, through recvBuf
   like data), close request / response, ack - at ANY later point: the run with the copy and the run without it end with
   the same nextRecv, the same bytes released to the application and the same open / closed state *)
Theorem C04_udp_replayed_copy_is_idempotent :
  forall (sent : list (list N)) (evs1 : list uevent) (e : uevent) (evs2 evs3 : list uevent),
    Forall (genuine sent) (evs1 ++ e :: evs2 ++ evs3) ->
    let a := u_run (evs1 ++ e :: evs2 ++ e :: evs3) in
    let b := u_run (evs1 ++ e :: evs2 ++ evs3) in
    u_next a = u_next b /\ u_q a = u_q b /\ u_closed a = u_closed b.
Proof. exact udp_replayed_copy_is_idempotent. Qed.
Print Assumptions C04_udp_replayed_copy_is_idempotent.

(* the copy of the open response (sequence number 0) after two data segments: nothing changes *)
Theorem C04_udp_replay_example :
  u_next (u_run [UArrive 0 []; UArrive 1 [5]; UArrive 2 [6]; UArrive 0 []; UArrive 3 [7]]) = 4%nat /\
  u_q (u_run [UArrive 0 []; UArrive 1 [5]; UArrive 2 [6]; UArrive 0 []; UArrive 3 [7]]) = [[]; [5]; [6]; [7]].
Proof. vm_compute. split; reflexivity. Qed.
Print Assumptions C04_udp_replay_example.
