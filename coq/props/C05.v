(* C05 - without a credential the server stays silent and creates nothing.  Model: model/ServerFront.v.
   key, open_hdr, open_body_*, le_ok, le_decode are any cipher (AEAD and low-entropy codec as functions), cands any
   candidate order of user discovery, sig_of / rcache / rc_dup any replay cache, keys the registered users' keys,
   produced the set of 72-byte headers that holders of registered keys made.  Two standing premises: discovery only
   tries registered keys; INT-CTXT of the AEAD (a header outside [produced] opens under no registered key) - a
   computational assumption, kept as a visible hypothesis.  "Holds no credential" = the first 72 bytes sent are not
   in [produced].
   In the UDP statements [match e with Dgram d _ _ => P (firstn hdr_len d) | Clean _ => False end] is
   [probe_with P e] written out, and the premise on the start state's sessions is [sess_ok] written out; [tcp_silent]
   is written out in the three C05_silent theorems about TCP and folded in C05_truncated_prefix_tcp, C05_bit_flip_tcp.
   Non-vacuity: Module Toy of proofs/ServerFrontProofs.v. *)
From Coq Require Import ZArith List.
(* model/Discover.v (C07) has names of its own (udp_run, usession, ...): imported first, the front door's names win *)
From M Require Import gen.Consts model.Discover proofs.DiscoverProofs.
From M Require Import model.ServerFront proofs.ServerFrontProofs proofs.ServerFrontDiscoverInst.
From M Require Import model.UserTable proofs.UserTableProofs.
Import ListNotations.
Open Scope Z_scope.

(* input of any length, also shorter than a header; the step ends blocked in ReadFull, or in the read-only drain
   (CRYPTO / REPLAY error); no receive cipher means no send cipher, ever, on this connection *)
Theorem C05_silent_tcp :
  forall (key : Type) (open_hdr : key -> bytes -> option bytes) (open_body_tcp : key -> bytes -> bytes -> option bytes)
         (le_ok : bytes -> bool) (le_decode : bytes -> bytes -> option bytes) (cands : bytes -> addr -> list key)
         (sig_of : bytes -> N) (rcache : Type) (rc_dup : rcache -> N -> addr -> Z -> bool * rcache)
         (keys : list key) (produced : bytes -> Prop),
  (forall (h : bytes) (src : addr) (k : key), In k (cands h src) -> In k keys) ->
  (forall h : bytes, ~ produced h -> forall k : key, In k keys -> open_hdr k h = None) ->
  forall (rc : rcache) (src : addr) (input : bytes) (now : Z),
  ~ produced (firstn hdr_len input) ->
  let r := fst (tcp_front key open_hdr open_body_tcp le_ok le_decode cands sig_of rcache rc_dup rc src input now) in
  (t_out r = [] /\ t_created r = [] /\ t_app r = [] /\ t_recv r = None /\ send_cipher key (t_recv r) = None) /\
  (t_verdict r = V_blocked \/ t_verdict r = V_crypto \/ t_verdict r = V_replay).
Proof.
  intros * CR INT * NP. apply tcp_no_key_silent with (keys := keys); [exact CR | exact (INT _ NP)].
Qed.
Print Assumptions C05_silent_tcp.

(* a strict prefix of the header of anything, a genuine first segment included: not even the replay cache is
   touched; no hypothesis *)
Theorem C05_truncated_prefix_tcp :
  forall (key : Type) (open_hdr : key -> bytes -> option bytes) (open_body_tcp : key -> bytes -> bytes -> option bytes)
         (le_ok : bytes -> bool) (le_decode : bytes -> bytes -> option bytes) (cands : bytes -> addr -> list key)
         (sig_of : bytes -> N) (rcache : Type) (rc_dup : rcache -> N -> addr -> Z -> bool * rcache)
         (rc : rcache) (src : addr) (genuine : bytes) (n : nat) (now : Z),
  (n < hdr_len)%nat ->
  let r := tcp_front key open_hdr open_body_tcp le_ok le_decode cands sig_of rcache rc_dup rc src (firstn n genuine) now in
  tcp_silent key (fst r) /\ t_verdict (fst r) = V_blocked /\ snd r = rc.
Proof.
  intros * Hn. cbv zeta.
  pose proof (Nat.le_min_l n (length genuine)) as M.
  rewrite tcp_short_blocks by (rewrite firstn_length; exact (Nat.le_lt_trans _ _ _ M Hn)).
  split; [apply tcp_fail_none_silent | split; reflexivity].
Qed.
Print Assumptions C05_truncated_prefix_tcp.

(* any of the 576 bits (nonce, ciphertext or tag), followed by anything.  That the flipped header is forged is a
   premise: it could happen to be another header a credential holder produced *)
Theorem C05_bit_flip_tcp :
  forall (key : Type) (open_hdr : key -> bytes -> option bytes) (open_body_tcp : key -> bytes -> bytes -> option bytes)
         (le_ok : bytes -> bool) (le_decode : bytes -> bytes -> option bytes) (cands : bytes -> addr -> list key)
         (sig_of : bytes -> N) (rcache : Type) (rc_dup : rcache -> N -> addr -> Z -> bool * rcache)
         (keys : list key) (produced : bytes -> Prop),
  (forall (h : bytes) (src : addr) (k : key), In k (cands h src) -> In k keys) ->
  (forall h : bytes, ~ produced h -> forall k : key, In k keys -> open_hdr k h = None) ->
  forall (rc : rcache) (src : addr) (hdr rest : bytes) (i : nat) (now : Z),
  length hdr = hdr_len -> (i < 8 * hdr_len)%nat ->
  ~ produced (flip_bit i hdr) ->
  let r := fst (tcp_front key open_hdr open_body_tcp le_ok le_decode cands sig_of rcache rc_dup rc src (flip_bit i hdr ++ rest) now) in
  flip_bit i hdr <> hdr /\ tcp_silent key r /\ (t_verdict r = V_crypto \/ t_verdict r = V_replay).
Proof.
  intros * CR INT * HL Hi NP.
  split; [apply flip_bit_neq; rewrite HL; exact Hi|].
  rewrite tcp_no_key_header with (keys := keys); [|exact CR|rewrite flip_bit_length; exact HL|exact (INT _ NP)].
  split; [apply tcp_fail_none_silent|]. cbn [tcp_fail t_verdict]. destruct (fst _); auto.
Qed.
Print Assumptions C05_bit_flip_tcp.

(* ... and when [hdr] is the only header the credential holders made, every flip is outside [produced] *)
Theorem C05_bit_flip_is_forged :
  forall (produced : bytes -> Prop) (hdr : bytes) (i : nat),
  (forall x, produced x -> x = hdr) -> (i < 8 * length hdr)%nat -> ~ produced (flip_bit i hdr).
Proof. intros produced hdr i U Hi P. apply (flip_bit_neq hdr i Hi). exact (U _ P). Qed.
Print Assumptions C05_bit_flip_is_forged.

(* the mechanism, stated for ALL inputs: a receive cipher (the only source of a send cipher,
   maybeInitSendBlockCipher) exists after the first-segment step only if a registered key opened the header *)
Theorem C05_send_cipher_needs_authentication :
  forall (key : Type) (open_hdr : key -> bytes -> option bytes) (open_body_tcp : key -> bytes -> bytes -> option bytes)
         (le_ok : bytes -> bool) (le_decode : bytes -> bytes -> option bytes) (cands : bytes -> addr -> list key)
         (sig_of : bytes -> N) (rcache : Type) (rc_dup : rcache -> N -> addr -> Z -> bool * rcache)
         (keys : list key),
  (forall (h : bytes) (src : addr) (k : key), In k (cands h src) -> In k keys) ->
  forall (rc : rcache) (src : addr) (input : bytes) (now : Z) (k : key),
  t_recv (fst (tcp_front key open_hdr open_body_tcp le_ok le_decode cands sig_of rcache rc_dup rc src input now)) = Some k ->
  In k keys /\ (exists m : bytes, open_hdr k (firstn hdr_len input) = Some m).
Proof.
  intros * CR * R.
  apply tcp_recv_from_discovery in R. destruct R as [m F].
  apply first_open_some in F. destruct F as [I O]. split; [exact (CR _ _ _ I) | exists m; exact O].
Qed.
Print Assumptions C05_send_cipher_needs_authentication.

(* every check of validateNewServerSessionSegment: a registered key opens the header, the replay cache has not
   flagged it, openSessionRequest (parse_meta: timestamp within one minute, payload length within
   MaxSessionOpenPayload), non-zero session id *)
Theorem C05_session_only_by_authenticated_open_request :
  forall (key : Type) (open_hdr : key -> bytes -> option bytes) (open_body_tcp : key -> bytes -> bytes -> option bytes)
         (le_ok : bytes -> bool) (le_decode : bytes -> bytes -> option bytes) (cands : bytes -> addr -> list key)
         (sig_of : bytes -> N) (rcache : Type) (rc_dup : rcache -> N -> addr -> Z -> bool * rcache)
         (keys : list key),
  (forall (h : bytes) (src : addr) (k : key), In k (cands h src) -> In k keys) ->
  forall (rc : rcache) (src : addr) (input : bytes) (now : Z),
  t_created (fst (tcp_front key open_hdr open_body_tcp le_ok le_decode cands sig_of rcache rc_dup rc src input now)) <> [] ->
  exists (hdr rest : bytes) (k : key) (m : bytes) (p sid plen slen : Z),
    take hdr_len input = Some (hdr, rest) /\
    fst (rc_dup rc (sig_of (firstn sig_len hdr)) [] now) = false /\
    In k keys /\ open_hdr k hdr = Some m /\
    parse_meta le_ok now m = M_session p sid plen slen /\
    p = C05_ProtoOpenSessionRequest /\ sid <> 0 /\
    t_verdict (fst (tcp_front key open_hdr open_body_tcp le_ok le_decode cands sig_of rcache rc_dup rc src input now)) = V_session.
Proof. exact tcp_created_inv. Qed.
Print Assumptions C05_session_only_by_authenticated_open_request.

(* histories at the server socket: probes from any source address (also a genuine client's), of any length,
   interleaved with any other traffic and with session clean-ups; the sessions of the start state hold registered keys *)
Theorem C05_silent_udp :
  forall (key : Type) (user_of : key -> N) (open_hdr : key -> bytes -> option bytes)
         (open_body_udp : key -> bytes -> bytes -> option bytes) (le_ok : bytes -> bool)
         (le_decode : bytes -> bytes -> option bytes) (cands : bytes -> addr -> list key) (sig_of : bytes -> N)
         (rcache : Type) (rc_dup : rcache -> N -> addr -> Z -> bool * rcache) (keys : list key) (produced : bytes -> Prop),
  (forall (h : bytes) (src : addr) (k : key), In k (cands h src) -> In k keys) ->
  (forall h : bytes, ~ produced h -> forall k : key, In k keys -> open_hdr k h = None) ->
  forall (probe : event -> bool) (evs : list event) (st : ustate key rcache),
  (forall s, In s (u_sessions st) -> In (us_key s) keys) ->
  (forall e : event, In e evs -> probe e = true ->
     match e with Dgram d src now => ~ produced (firstn hdr_len d) | Clean _ => False end) ->
  forall (e : event) (r : udp_result key),
  In (e, r) (fst (udp_run key user_of open_hdr open_body_udp le_ok le_decode cands sig_of rcache rc_dup st evs)) ->
  probe e = true ->
  (u_out r = [] /\ u_created r = [] /\ u_delivered r = []) /\ (u_verdict r = V_short \/ u_verdict r = V_undecryptable).
Proof.
  intros * CR INT * OK HP.
  apply udp_run_no_key_silent with (keys := keys) (P := fun h => ~ produced h); [exact CR | exact INT | exact OK | exact HP].
Qed.
Print Assumptions C05_silent_udp.

(* non-interference: replies, sessions, deliveries and the final session table are what they would be had the probes
   never been sent.  [rc_nfp]: the cache has no false positive (C06_replay_no_false_positive states it of
   model/Replay.v; not discharged with it here).  Last premise ([owned]): the first 16 bytes of a non-probe datagram
   are never presented from another source address - a prober cannot predict a fresh random nonce, and copying one
   is a replay (C06) *)
Theorem C05_noninterference_udp :
  forall (key : Type) (user_of : key -> N) (open_hdr : key -> bytes -> option bytes)
         (open_body_udp : key -> bytes -> bytes -> option bytes) (le_ok : bytes -> bool)
         (le_decode : bytes -> bytes -> option bytes) (cands : bytes -> addr -> list key) (sig_of : bytes -> N)
         (rcache : Type) (rc_dup : rcache -> N -> addr -> Z -> bool * rcache) (keys : list key) (produced : bytes -> Prop),
  (forall (h : bytes) (src : addr) (k : key), In k (cands h src) -> In k keys) ->
  (forall h : bytes, ~ produced h -> forall k : key, In k keys -> open_hdr k h = None) ->
  forall rc0 : rcache,
  (forall (h : list rc_op) (s : N) (t : addr) (now : Z),
     fst (rc_dup (rc_final rcache rc_dup rc0 h) s t now) = true ->
     exists (t' : addr) (now' : Z), In (s, t', now') h /\ (t' = [] \/ t = [] \/ t' <> t)) ->
  forall (probe : event -> bool) (evs : list event) (h0 : list rc_op) (ss : list (usession key)),
  (forall s, In s ss -> In (us_key s) keys) ->
  (forall e : event, In e evs -> probe e = true ->
     match e with Dgram d src now => ~ produced (firstn hdr_len d) | Clean _ => False end) ->
  (forall e o o', In e evs -> probe e = false -> In o (event_ops sig_of e) -> In o' (h0 ++ events_ops sig_of evs) ->
     fst (fst o') = fst (fst o) -> snd (fst o') = snd (fst o) /\ snd (fst o) <> []) ->
  let st := mkU key rcache (rc_final rcache rc_dup rc0 h0) ss in
  let run := udp_run key user_of open_hdr open_body_udp le_ok le_decode cands sig_of rcache rc_dup st in
  filter (fun er : event * udp_result key => negb (probe (fst er))) (fst (run evs))
    = fst (run (filter (fun e => negb (probe e)) evs)) /\
  u_sessions (snd (run evs)) = u_sessions (snd (run (filter (fun e => negb (probe e)) evs))).
Proof.
  intros * CR INT * NFP * OK HP OW st run.
  (* both runs start from the same cache history *)
  apply c05_noninterference_gen with (keys := keys) (P := fun h => ~ produced h) (hA := h0) (hB := h0);
    try assumption.
  apply incl_refl.
Qed.
Print Assumptions C05_noninterference_udp.

(* the two premises of C05_silent_tcp .. C05_silent_udp ([cands_registered], INT-CTXT) are satisfiable and the model is
   not silent by construction: the toy instance accepts a genuine first segment, and none of the 576 bit flips of its
   header is a header its key holders produced.  The two further premises of C05_noninterference_udp are not covered. *)
Theorem C05_nonvacuous :
  (forall h src k, In k (Toy.tcands h src) -> In k Toy.tkeys) /\
  (forall h, ~ Toy.tproduced h -> forall k, In k Toy.tkeys -> Toy.topen k h = None) /\
  (forall i, In i (seq 0 576) -> ~ Toy.tproduced (flip_bit i Toy.hdr_open)) /\
  (let r := fst (tcp_front Toy.tkey Toy.topen Toy.tbody (fun _ => true) (fun _ w => Some w) Toy.tcands Toy.tsig
                           Toy.tcache Toy.tdup [] Toy.A Toy.first_segment Toy.now0) in
   t_created r = [7] /\ t_app r = [(7, [65; 66; 67]%N)] /\ t_verdict r = V_session /\ t_recv r = Some 1%N).
Proof.
  exact (conj Toy.toy_cands_registered (conj Toy.toy_open_forged_none (conj Toy.ex_flips_not_produced Toy.ex_tcp_genuine_accepted))).
Qed.
Print Assumptions C05_nonvacuous.

(* Composed with user discovery (C07; the instantiation is laid out at the head of proofs/ServerFrontDiscoverInst.v).
   users = the published generation, ids 1..length users as buildState assigns them; hint any function (collisions
   allowed), cached src any list.  [cands_registered] is proved; INT-CTXT is about the users' real keys; on UDP the
   existing sessions hold ids of registered users.  One fixed generation per statement. *)

(* [d_cands] and (next) [d_open] of proofs/ServerFrontDiscoverInst.v written out, so that the statements below can be read
   without that file; nothing about mieru is claimed *)
Theorem C05_discover_candidates_are_try_state :
  forall (U K : Type) (users : list U) (key_of : U -> K) (open_k : K -> bytes -> option bytes)
         (hint : bytes -> U -> bool) (cached : addr -> list N) (mandatory : bool) (h : bytes) (src : addr),
  d_cands users key_of open_k hint cached mandatory h src =
  match r_hit (try_state U (hint h) (fun u => match open_k (key_of u) h with Some _ => true | None => false end)
                         users (cached src) mandatory) with
  | Some (i, _, _) => [i]
  | None => []
  end.
Proof. reflexivity. Qed.
Print Assumptions C05_discover_candidates_are_try_state.

Theorem C05_discover_cipher_of_id :
  forall (U K : Type) (users : list U) (key_of : U -> K) (open_k : K -> bytes -> option bytes) (i : N) (h : bytes),
  d_open users key_of open_k i h = match user_by_id U users i with Some u => open_k (key_of u) h | None => None end.
Proof. reflexivity. Qed.
Print Assumptions C05_discover_cipher_of_id.

(* discovery (tryState) only ever returns, and only ever tries, ids 1..length users (C07_attr_sound,
   C07_attr_tried_registered); the first half is the premise [cands_registered] of the theorems above *)
Theorem C05_cands_registered_proved :
  forall (U K : Type) (users : list U) (key_of : U -> K) (open_k : K -> bytes -> option bytes) (hint : bytes -> U -> bool)
         (cached : addr -> list N) (mandatory : bool) (h : bytes) (src : addr) (i : N),
  (In i (d_cands users key_of open_k hint cached mandatory h src) -> In i (reg_ids users)) /\
  (In i (r_tried (d_try users key_of open_k hint cached mandatory h src)) -> In i (reg_ids users)).
Proof.
  intros. split; [apply d_cands_registered | apply d_tried_registered].
Qed.
Print Assumptions C05_cands_registered_proved.

(* C05_silent_tcp with discovery inside: the only premise is INT-CTXT *)
Theorem C05_silent_tcp_discover :
  forall (U K : Type) (users : list U) (key_of : U -> K) (open_k : K -> bytes -> option bytes)
         (body_tcp : K -> bytes -> bytes -> option bytes) (hint : bytes -> U -> bool) (cached : addr -> list N)
         (mandatory : bool) (le_ok : bytes -> bool) (le_decode : bytes -> bytes -> option bytes) (sig_of : bytes -> N)
         (rcache : Type) (rc_dup : rcache -> N -> addr -> Z -> bool * rcache) (produced : bytes -> Prop),
  (forall h : bytes, ~ produced h -> forall u : U, In u users -> open_k (key_of u) h = None) ->
  forall (rc : rcache) (src : addr) (input : bytes) (now : Z),
  ~ produced (firstn hdr_len input) ->
  let r := fst (tcp_front N (d_open users key_of open_k) (d_body users key_of body_tcp) le_ok le_decode
                          (d_cands users key_of open_k hint cached mandatory) sig_of rcache rc_dup rc src input now) in
  (t_out r = [] /\ t_created r = [] /\ t_app r = [] /\ t_recv r = None /\ send_cipher N (t_recv r) = None) /\
  (t_verdict r = V_blocked \/ t_verdict r = V_crypto \/ t_verdict r = V_replay).
Proof.
  intros * INT * NP. apply tcp_front_d_silent. exact (INT _ NP).
Qed.
Print Assumptions C05_silent_tcp_discover.

(* C05_silent_udp with discovery inside *)
Theorem C05_silent_udp_discover :
  forall (U K : Type) (users : list U) (key_of : U -> K) (open_k : K -> bytes -> option bytes)
         (body_udp : K -> bytes -> bytes -> option bytes) (hint : bytes -> U -> bool) (cached : addr -> list N)
         (mandatory : bool) (le_ok : bytes -> bool) (le_decode : bytes -> bytes -> option bytes) (sig_of : bytes -> N)
         (rcache : Type) (rc_dup : rcache -> N -> addr -> Z -> bool * rcache) (produced : bytes -> Prop),
  (forall h : bytes, ~ produced h -> forall u : U, In u users -> open_k (key_of u) h = None) ->
  forall (probe : event -> bool) (evs : list event) (st : ustate N rcache),
  (forall s : usession N, In s (u_sessions st) -> In (us_key s) (reg_ids users)) ->
  (forall e : event, In e evs -> probe e = true ->
     match e with Dgram d _ _ => ~ produced (firstn hdr_len d) | Clean _ => False end) ->
  forall (e : event) (r : udp_result N),
  In (e, r) (fst (udp_run N (fun i => i) (d_open users key_of open_k) (d_body users key_of body_udp) le_ok le_decode
                          (d_cands users key_of open_k hint cached mandatory) sig_of rcache rc_dup st evs)) ->
  probe e = true ->
  (u_out r = [] /\ u_created r = [] /\ u_delivered r = []) /\ (u_verdict r = V_short \/ u_verdict r = V_undecryptable).
Proof.
  intros * INT * OK HP.
  apply udp_run_d_silent with (P := fun h => ~ produced h); [exact INT | exact OK | exact HP].
Qed.
Print Assumptions C05_silent_udp_discover.

(* the link to C07: the receive cipher of the connection, and with it the session's user, is the user tryState
   attributed the header to; no cryptographic premise *)
Theorem C05_attribution :
  forall (U K : Type) (users : list U) (key_of : U -> K) (open_k : K -> bytes -> option bytes)
         (body_tcp : K -> bytes -> bytes -> option bytes) (hint : bytes -> U -> bool) (cached : addr -> list N)
         (mandatory : bool) (le_ok : bytes -> bool) (le_decode : bytes -> bytes -> option bytes) (sig_of : bytes -> N)
         (rcache : Type) (rc_dup : rcache -> N -> addr -> Z -> bool * rcache) (rc : rcache) (src : addr)
         (input : bytes) (now : Z),
  let front := tcp_front N (d_open users key_of open_k) (d_body users key_of body_tcp) le_ok le_decode
                         (d_cands users key_of open_k hint cached mandatory) sig_of rcache rc_dup in
  t_created (fst (front rc src input now)) <> [] ->
  let h := firstn hdr_len input in
  exists (i : N) (u : U) (o : origin) (m : bytes),
    t_recv (fst (front rc src input now)) = Some i /\
    r_hit (try_state U (hint h) (d_auth key_of open_k h) users (cached src) mandatory) = Some (i, u, o) /\
    user_by_id U users i = Some u /\ In u users /\
    open_k (key_of u) h = Some m /\
    hint h u = origin_hint o /\
    (mandatory = true -> hint h u = true) /\
    ((exists (j : N) (v : U), user_by_id U users j = Some v /\ hint h v = true /\ open_k (key_of v) h <> None) ->
     hint h u = true).
Proof.
  intros * C h.
  apply tcp_created_has_recv in C. destruct C as [i R].
  pose proof R as Q. apply c05_recv_attribution in Q. destruct Q as [u [o [m Q]]].
  exists i, u, o, m. split; [exact R | exact Q].
Qed.
Print Assumptions C05_attribution.

(* MANAGEMENT EVENTS: which credentials are registered is not a constant.  model/UserTable.v:
     compile_users hashpw es   the users buildState compiles from the user map es (admission rule + order + ids),
     published hashpw init h   the generation in force after the server was started with init and the operator
                               published the lists h (oldest first): Registry.SetUsers always replaces - the LAST
                               list decides, the empty list included.
   hashpw = cipher.HashPassword (any function).  The driver compares compile_users of the last published list
   with the table of the real registry after every SetServerUsers. *)

(* SetUsers: the last publication decides; an empty list leaves NO user *)
Theorem C05_published_is_last :
  forall (hashpw : bytes -> bytes -> bytes) (init : list entry) (h : list (list entry)) (l : list entry),
  (published hashpw init (h ++ [l]) = compile_users hashpw l) /\
  (published hashpw init (h ++ [nil]) = nil) /\
  (published hashpw init nil = compile_users hashpw init).
Proof.
  intros. split; [apply published_last | split; [|apply published_none]].
  rewrite published_last. apply compile_nil.
Qed.
Print Assumptions C05_published_is_last.

(* the admission rule of buildState / buildCredential: every credential is a SECRET of a present, uniquely named record *)
Theorem C05_admission_rule :
  forall (hashpw : bytes -> bytes -> bytes) (es : list entry) (c : cuser),
  In c (compile_users hashpw es) ->
  exists e : entry,
    In e es /\ e_present e = true /\ c_name c = e_name e /\ e_name e <> [] /\
    (length (e_name e) <= max_name_len)%nat /\ (count_name (e_name e) es <= 1)%nat /\
    ((e_hashed e <> [] /\ hex_decode (e_hashed e) = Some (c_cred c) /\ length (c_cred c) = cred_len) \/
     (e_hashed e = [] /\ e_password e <> [] /\ c_cred c = hashpw (e_password e) (e_name e))).
Proof.
  intros hashpw es c H. apply compiled_from_entry in H. destruct H as [e [I [A N]]].
  apply admitted_inv in A. destruct A as [P [NE [L [C S]]]].
  exists e. unfold name_of in N. rewrite P in N. repeat split; auto.
Qed.
Print Assumptions C05_admission_rule.

(* knowing a NAME (which the user hint in every nonce reveals) gives nothing *)
Theorem C05_no_secret_no_credential :
  forall (hashpw : bytes -> bytes -> bytes) (es : list entry) (n : bytes),
  (forall e : entry, In e es -> name_of e = n -> e_password e = [] /\ e_hashed e = []) ->
  forall c : cuser, In c (compile_users hashpw es) -> c_name c <> n.
Proof. exact no_secret_no_credential. Qed.
Print Assumptions C05_no_secret_no_credential.

(* entries that share a name register nobody under that name, whatever their passwords *)
Theorem C05_duplicate_names_not_registered :
  forall (hashpw : bytes -> bytes -> bytes) (es : list entry) (e1 e2 : entry),
  In e1 es -> In e2 es -> e1 <> e2 -> name_of e1 = name_of e2 ->
  forall c : cuser, In c (compile_users hashpw es) -> c_name c <> name_of e1.
Proof.
  intros hashpw es e1 e2 I1 I2 NE EQ c H E. apply compiled_from_entry in H. destruct H as [e [I [A N]]].
  rewrite (shared_name_not_admitted hashpw es e1 e2 e I1 I2 NE EQ) in A; [discriminate | congruence].
Qed.
Print Assumptions C05_duplicate_names_not_registered.

(* kdf: credential -> cipher key of the current slot; seal k n m: the 72-byte header made with key k.  Premise: key
   separation of the AEAD.  The sender's credential is not one of the generation published LAST: removed one reload
   ago or ten, never registered, registered only under another password.  TCP: a fresh connection. *)
Theorem C05_silent_after_reload :
  forall (K : Type) (hashpw : bytes -> bytes -> bytes) (kdf : bytes -> K) (seal : K -> bytes -> bytes -> bytes)
         (open_k : K -> bytes -> option bytes) (body_tcp : K -> bytes -> bytes -> option bytes) (hint : bytes -> cuser -> bool)
         (cached : addr -> list N) (mandatory : bool) (le_ok : bytes -> bool) (le_decode : bytes -> bytes -> option bytes)
         (sig_of : bytes -> N) (rcache : Type) (rc_dup : rcache -> N -> addr -> Z -> bool * rcache),
  (forall (k k' : K) (n m : bytes), k' <> k -> open_k k' (seal k n m) = None) ->
  forall (init : list entry) (h : list (list entry)) (rc : rcache) (src : addr) (input : bytes) (now : Z),
  (exists cred n m : bytes,
     firstn hdr_len input = seal (kdf cred) n m /\
     forall u : cuser, In u (published hashpw init h) -> kdf (c_cred u) <> kdf cred) ->
  let users := published hashpw init h in
  let key_of := fun u : cuser => kdf (c_cred u) in
  let r := fst (tcp_front N (d_open users key_of open_k) (d_body users key_of body_tcp) le_ok le_decode
                          (d_cands users key_of open_k hint cached mandatory) sig_of rcache rc_dup rc src input now) in
  (t_out r = [] /\ t_created r = [] /\ t_app r = [] /\ t_recv r = None /\ send_cipher N (t_recv r) = None) /\
  (t_verdict r = V_blocked \/ t_verdict r = V_crypto \/ t_verdict r = V_replay).
Proof.
  intros * SEP * F users key_of. apply tcp_front_d_silent.
  exact (foreign_no_key_opens K hashpw kdf seal open_k SEP init h _ F).
Qed.
Print Assumptions C05_silent_after_reload.

(* UDP.  The premise on the start state is where a user removed WHILE it has a live session falls outside: the
   ciphers of existing sessions are tried before discovery and do not consult the registry (the driver reports what
   the real server does in that case). *)
Theorem C05_silent_after_reload_udp :
  forall (K : Type) (hashpw : bytes -> bytes -> bytes) (kdf : bytes -> K) (seal : K -> bytes -> bytes -> bytes)
         (open_k : K -> bytes -> option bytes) (body_udp : K -> bytes -> bytes -> option bytes) (hint : bytes -> cuser -> bool)
         (cached : addr -> list N) (mandatory : bool) (le_ok : bytes -> bool) (le_decode : bytes -> bytes -> option bytes)
         (sig_of : bytes -> N) (rcache : Type) (rc_dup : rcache -> N -> addr -> Z -> bool * rcache),
  (forall (k k' : K) (n m : bytes), k' <> k -> open_k k' (seal k n m) = None) ->
  forall (init : list entry) (h : list (list entry)) (probe : event -> bool) (evs : list event) (st : ustate N rcache),
  (forall s : usession N, In s (u_sessions st) -> In (us_key s) (reg_ids (published hashpw init h))) ->
  (forall e : event, In e evs -> probe e = true ->
     match e with
     | Dgram d _ _ => exists cred n m : bytes, firstn hdr_len d = seal (kdf cred) n m /\
                                           forall u : cuser, In u (published hashpw init h) -> kdf (c_cred u) <> kdf cred
     | Clean _ => False
     end) ->
  forall (e : event) (r : udp_result N),
  In (e, r) (fst (udp_run N (fun i : N => i) (d_open (published hashpw init h) (fun u : cuser => kdf (c_cred u)) open_k)
                          (d_body (published hashpw init h) (fun u : cuser => kdf (c_cred u)) body_udp) le_ok le_decode
                          (d_cands (published hashpw init h) (fun u : cuser => kdf (c_cred u)) open_k hint cached mandatory)
                          sig_of rcache rc_dup st evs)) ->
  probe e = true ->
  (u_out r = [] /\ u_created r = [] /\ u_delivered r = []) /\ (u_verdict r = V_short \/ u_verdict r = V_undecryptable).
Proof.
  intros * SEP * OK HP.
  apply udp_run_d_silent with (P := foreign_header K hashpw kdf seal init h); [|exact OK | exact HP].
  exact (foreign_no_key_opens K hashpw kdf seal open_k SEP init h).
Qed.
Print Assumptions C05_silent_after_reload_udp.
