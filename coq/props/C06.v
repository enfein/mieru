(* C06.  The server's record of recent traffic (pkg/replay) never reports never-seen traffic as a replay and never
   misses an entry inside its (interval, capacity) bounds; and the server's front door of model/ServerFront.v,
   running on this very cache, refuses a copy of an accepted first segment.
   The model (model/Replay.v, [is_duplicate]) is pkg/replay/replay.go IsDuplicate with
   fixes/C06-replay-tag-overwrite.diff applied; [is_duplicate_v0]/[outs_v0] is the function
   as found at the pinned commit. *)
From Coq Require Import ZArith NArith List.
From M Require Import gen.Consts model.Replay model.KeyTime proofs.KeyTimeProofs proofs.ReplayProofs.
From M Require Import model.ServerFront proofs.ServerFrontProofs proofs.ReplayFrontInst.
Import ListNotations.
Open Scope Z_scope.

(* the tag rule of IsDuplicate; a tag is the source address (packet cache) or empty (stream cache) *)
Theorem C06_tag_rule : forall a t : tag,
  tag_rule a t = true <-> (a = [] \/ t = [] \/ a <> t).
Proof. exact tag_rule_true. Qed.
Print Assumptions C06_tag_rule.

(* no false positive: any history, any times (not only non-decreasing ones) *)
Theorem C06_replay_no_false_positive :
  forall (capv iv T0 : Z) (c0 : cache) (h : list op) (s : N) (t : tag) (now : Z),
  new_cache capv iv T0 = Some c0 ->
  fst (step (final c0 h) (s, t, now)) = true ->
  exists t' now', In (s, t', now') h /\ (t' = [] \/ t = [] \/ t' <> t).
Proof. exact replay_no_false_positive. Qed.
Print Assumptions C06_replay_no_false_positive.

(* no miss: h1 is arbitrary; h2 has non-decreasing times and fewer than capv distinct signatures other than x (the
   long term is ReplayProofs.cnt x (sigs h2)); capv <> 0: the cache is not disabled.  tq <> ta is another source
   address; the very same non-empty tag is let through: the documented retransmission from the same address *)
Theorem C06_replay_no_miss :
  forall (capv iv T0 : Z) (c0 : cache) (h1 : list op)
         (x : N) (ta : tag) (t0 : Z) (h2 : list op) (tq : tag) (t1 : Z),
  new_cache capv iv T0 = Some c0 -> capv <> 0 ->
  fst (step (final c0 h1) (x, ta, t0)) = false ->
  mono_from t0 (h2 ++ [(x, tq, t1)]) ->
  t1 < t0 + iv ->
  Z.of_nat (length (nodup N.eq_dec (remove N.eq_dec x (map op_sig h2)))) < capv ->
  fst (step (final c0 (h1 ++ (x, ta, t0) :: h2)) (x, tq, t1)) = tag_rule ta tq.
Proof. exact replay_no_miss. Qed.
Print Assumptions C06_replay_no_miss.

(* the stream cache always uses the empty tag: acceptance at t0 is then not needed *)
Theorem C06_replay_no_miss_empty_tag :
  forall (capv iv T0 : Z) (c0 : cache) (h1 : list op)
         (x : N) (ta : tag) (t0 : Z) (h2 : list op) (t1 : Z),
  new_cache capv iv T0 = Some c0 -> capv <> 0 ->
  mono_from t0 (h2 ++ [(x, [], t1)]) ->
  t1 < t0 + iv ->
  Z.of_nat (length (nodup N.eq_dec (remove N.eq_dec x (map op_sig h2)))) < capv ->
  fst (step (final c0 (h1 ++ (x, ta, t0) :: h2)) (x, [], t1)) = true.
Proof. exact replay_no_miss_empty_tag. Qed.
Print Assumptions C06_replay_no_miss_empty_tag.

(* from any well-formed state, not only reachable ones; e is the tag held for x after the presentation at t0 *)
Theorem C06_replay_no_miss_any_state :
  forall (c : cache) (x : N) (ta : tag) (t0 : Z) (h2 : list op) (tq : tag) (t1 : Z),
  wf c ->
  mono_from t0 (h2 ++ [(x, tq, t1)]) ->
  t1 < t0 + interval c ->
  cnt x (sigs h2) < cap c ->
  exists e,
    fst (step (final c ((x, ta, t0) :: h2)) (x, tq, t1)) = tag_rule e tq /\
    (fst (step c (x, ta, t0)) = false -> e = ta) /\
    (exists n, In (x, e, n) [(x, ta, t0)] \/ In (x, e) (cur c) \/ In (x, e) (prev c)).
Proof.
  intros c x ta t0 h2 tq t1 W M Hi Hc.
  destruct (replay_no_miss_stored c x ta t0 h2 tq t1 W M Hi Hc) as (e & R & Ha & Hs).
  exists e. split; [exact R|]. split; [exact Ha|]. exists t0.
  destruct Hs as [->|Hs]; [left; left; reflexivity|right; exact Hs].
Qed.
Print Assumptions C06_replay_no_miss_any_state.

(* the function as found at the pinned commit violates the no-miss statement: x accepted from tag A,
   one other new signature (capacity 2), no time passing, and the second replay from tag B passes *)
Theorem C06_pinned_code_no_miss_refuted :
  exists (c0 : cache) (h1 h2 : list op) (x : N) (ta tq : tag) (t0 t1 : Z),
    new_cache 2 60 0 = Some c0 /\
    nth 1 (outs_v0 c0 (h1 ++ (x, ta, t0) :: h2 ++ [(x, tq, t1)])) true = false /\
    mono_from t0 (h2 ++ [(x, tq, t1)]) /\ t1 < t0 + 60 /\ cnt x (sigs h2) < 2 /\
    tag_conflict ta tq /\
    last (outs_v0 c0 (h1 ++ (x, ta, t0) :: h2 ++ [(x, tq, t1)])) true = false.
Proof.
  exists (mkCache 2 60 60 [] []), [(1%N, [], 0)], [(2%N, tB, 0); (3%N, [], 0)], 2%N, tA, tB, 0, 0.
  split; [reflexivity|]. split; [reflexivity|].
  split; [repeat split; vm_compute; intros [=]|].   (* mono_from: 0 <= 0 three times *)
  split; [reflexivity|]. split; [reflexivity|].
  split; [right; right; discriminate|reflexivity].
Qed.
Print Assumptions C06_pinned_code_no_miss_refuted.

(* capacity 0 is IsDuplicate's "replay cache is disabled" branch *)
Theorem C06_disabled_only_if_capacity_zero :
  (forall (c : cache) s t now, cap c = 0 -> is_duplicate c s t now = (false, c)) /\
  0 < streamReplayCapacity /\ 0 < packetReplayCapacity.
Proof. exact (conj disabled_never_duplicate process_caches_enabled). Qed.
Print Assumptions C06_disabled_only_if_capacity_zero.

Theorem C06_retention_is_three_refresh :
  streamReplayInterval_ns = 3 * KeyRefreshInterval_ns /\ packetReplayInterval_ns = 3 * KeyRefreshInterval_ns.
Proof. exact process_caches_interval. Qed.
Print Assumptions C06_retention_is_three_refresh.

(* the retention covers the whole time a receiver can use one key slot (t0 first acceptance, t1 replay) *)
Theorem C06_retention_covers_key :
  forall k t0 t1 : Z,
  In k (slots KeyRefreshInterval_ns t0) -> In k (slots KeyRefreshInterval_ns t1) -> t0 <= t1 ->
  t1 < t0 + streamReplayInterval_ns /\ t1 < t0 + packetReplayInterval_ns.
Proof. exact retention_covers_key. Qed.
Print Assumptions C06_retention_covers_key.

(* ... and the +-1 minute window of a metadata timestamp ts as model/KeyTime.v has it ([timestamp_ok]);
   model/ServerFront.v's front door tests its own copy of that definition, [ts_ok] *)
Theorem C06_retention_covers_timestamp :
  forall ts t0 t1 : Z,
  era ts -> era t0 -> era t1 ->
  timestamp_ok t0 ts = true -> timestamp_ok t1 ts = true -> t0 <= t1 ->
  t1 < t0 + streamReplayInterval_ns /\ t1 < t0 + packetReplayInterval_ns.
Proof. exact retention_covers_timestamp. Qed.
Print Assumptions C06_retention_covers_timestamp.

(* End to end: the server's first-segment logic (model/ServerFront.v: tcp_front / udp_front) on the cache of
   model/Replay.v with the process-wide parameters, for every cipher, discovery order (cands) and signature function.
   The TCP theorems assume that discovery tries registered keys only; the UDP theorems do not.  The cipher functions in
   force at the time of the replay (key', oh, ob, lo, ld, cd, and on UDP the session table ss1) are unrelated to
   those of the original: the copy is refused WHETHER OR NOT it decrypts. *)

(* TCP.  h1, h2: the cache traffic before and after the accepted first segment (other connections, later segments
   of this one).  input1 is any byte string with the same first 72 bytes - the whole recorded stream, a prefix, the
   first segment alone - on a new connection from any address: no Write, no session, nothing for Accept;
   REPLAY_ERROR (read-only drain, close). *)
Theorem C06_replay_rejected_tcp :
  forall (key : Type) (open_hdr : key -> bytes -> option bytes) (open_body_tcp : key -> bytes -> bytes -> option bytes)
         (le_ok : bytes -> bool) (le_decode : bytes -> bytes -> option bytes) (cands : bytes -> addr -> list key)
         (sig_of : bytes -> N) (keys : list key),
  (forall (h : bytes) (src : addr) (k : key), In k (cands h src) -> In k keys) ->
  forall (T0 : Z) (c0 : cache)
         (key' : Type) (oh : key' -> bytes -> option bytes) (ob : key' -> bytes -> bytes -> option bytes)
         (lo : bytes -> bool) (ld : bytes -> bytes -> option bytes) (cd : bytes -> addr -> list key')
         (h1 : list op) (src0 : addr) (input0 : bytes) (t0 : Z)
         (h2 : list op) (src1 : addr) (input1 : bytes) (t1 : Z),
  new_cache streamReplayCapacity streamReplayInterval_ns T0 = Some c0 ->
  t_created (fst (tcp_front key open_hdr open_body_tcp le_ok le_decode cands sig_of cache is_duplicate
                            (final c0 h1) src0 input0 t0)) <> [] ->
  firstn hdr_len input1 = firstn hdr_len input0 ->
  let x := sig_of (firstn sig_len (firstn hdr_len input0)) in
  mono_from t0 (h2 ++ [(x, [], t1)]) ->
  t1 < t0 + streamReplayInterval_ns ->
  Z.of_nat (length (nodup N.eq_dec (remove N.eq_dec x (map op_sig h2)))) < streamReplayCapacity ->
  let r := fst (tcp_front key' oh ob lo ld cd sig_of cache is_duplicate
                          (final c0 (h1 ++ (x, [], t0) :: h2)) src1 input1 t1) in
  t_out r = [] /\ t_created r = [] /\ t_app r = [] /\ t_verdict r = V_replay.
Proof.
  intros * REG * NC ACC SAME x M T C.
  eapply c06_replay_rejected_tcp with (rcache := cache) (rc_dup := is_duplicate) (rc0 := c0) (keys := keys)
                                      (rc_within := within streamReplayCapacity streamReplayInterval_ns).
  - exact REG.
  - exact (real_no_miss _ _ T0 c0 NC (proj1 caps_nonzero)).
  - exact ACC.
  - exact SAME.
  - exact (conj M (conj T C)).
Qed.
Print Assumptions C06_replay_rejected_tcp.

(* UDP.  Accepted at t0 = it created a session, reached one, or drew a close request.  The same bytes from a
   DIFFERENT source address, against any session table. *)
Theorem C06_replay_rejected_udp :
  forall (key : Type) (user_of : key -> N) (open_hdr : key -> bytes -> option bytes)
         (open_body_udp : key -> bytes -> bytes -> option bytes) (le_ok : bytes -> bool)
         (le_decode : bytes -> bytes -> option bytes) (cands : bytes -> addr -> list key) (sig_of : bytes -> N)
         (T0 : Z) (c0 : cache)
         (key' : Type) (uo : key' -> N) (oh : key' -> bytes -> option bytes) (ob : key' -> bytes -> bytes -> option bytes)
         (lo : bytes -> bool) (ld : bytes -> bytes -> option bytes) (cd : bytes -> addr -> list key')
         (h1 : list op) (ss0 : list (usession key)) (d : bytes) (srcA : addr) (t0 : Z)
         (h2 : list op) (ss1 : list (usession key')) (srcB : addr) (t1 : Z),
  new_cache packetReplayCapacity packetReplayInterval_ns T0 = Some c0 ->
  (let r0 := fst (udp_front key user_of open_hdr open_body_udp le_ok le_decode cands sig_of cache is_duplicate
                            (mkU key cache (final c0 h1) ss0) d srcA t0) in
   u_created r0 <> [] \/ u_delivered r0 <> [] \/ u_out r0 <> []) ->
  srcB <> srcA ->
  let x := sig_of (firstn sig_len (firstn hdr_len d)) in
  mono_from t0 (h2 ++ [(x, srcB, t1)]) ->
  t1 < t0 + packetReplayInterval_ns ->
  Z.of_nat (length (nodup N.eq_dec (remove N.eq_dec x (map op_sig h2)))) < packetReplayCapacity ->
  let st1 := mkU key' cache (final c0 (h1 ++ (x, srcA, t0) :: h2)) ss1 in
  let r := udp_front key' uo oh ob lo ld cd sig_of cache is_duplicate st1 d srcB t1 in
  u_out (fst r) = [] /\ u_created (fst r) = [] /\ u_delivered (fst r) = [] /\
  u_sessions (snd r) = ss1 /\
  (u_verdict (fst r) = V_replay_drop \/ u_verdict (fst r) = V_undecryptable).
Proof.
  intros * NC ACC NE x M T C.
  eapply c06_replay_rejected_udp with (rcache := cache) (rc_dup := is_duplicate) (rc0 := c0)
                                      (rc_within := within packetReplayCapacity packetReplayInterval_ns).
  - exact (real_no_miss _ _ T0 c0 NC (proj2 caps_nonzero)).
  - exact ACC.
  - exact NE.
  - exact (conj M (conj T C)).
Qed.
Print Assumptions C06_replay_rejected_udp.

(* Management reloads (Mux.SetServerUsers, the body of the Reload RPC); server state = (users generation, replay
   cache).  The first half reads the definition of [set_users] back: that a reload leaves the cache alone is the
   modelling decision of model/Replay.v (mux.go SetServerUsers touches only the user table).  The second half is
   its consequence over a whole history, wherever and however often reloads are interleaved. *)
Theorem C06_reload_leaves_cache_untouched :
  (forall (s : server) (g : N), s_rc (set_users s g) = s_rc s /\ s_users (set_users s g) = g) /\
  (forall (h : list sop) (s : server), s_rc (sfinal s h) = final (s_rc s) (presents h)).
Proof. exact (conj set_users_spec sfinal_cache). Qed.
Print Assumptions C06_reload_leaves_cache_untouched.

(* only the traffic counts for the bounds *)
Theorem C06_replay_no_miss_across_reload :
  forall (capv iv T0 : Z) (c0 : cache) (g0 : N) (hs1 : list sop)
         (x : N) (ta : tag) (t0 : Z) (hs2 : list sop) (tq : tag) (t1 : Z),
  new_cache capv iv T0 = Some c0 -> capv <> 0 ->
  fst (sstep (sfinal (mkServer g0 c0) hs1) (Present (x, ta, t0))) = Some false ->
  mono_from t0 (presents hs2 ++ [(x, tq, t1)]) ->
  t1 < t0 + iv ->
  Z.of_nat (length (nodup N.eq_dec (remove N.eq_dec x (map op_sig (presents hs2))))) < capv ->
  fst (sstep (sfinal (mkServer g0 c0) (hs1 ++ Present (x, ta, t0) :: hs2)) (Present (x, tq, t1))) = Some (tag_rule ta tq).
Proof. exact replay_no_miss_across_reload. Qed.
Print Assumptions C06_replay_no_miss_across_reload.

(* End to end across reloads.  [cands_of g] is discovery under generation g; generations are arbitrary (same users,
   users added or removed, quotas changed); hs2 is ANY history of traffic and reloads. *)
Theorem C06_replay_rejected_across_reload_tcp :
  forall (key : Type) (open_hdr : key -> bytes -> option bytes) (open_body_tcp : key -> bytes -> bytes -> option bytes)
         (le_ok : bytes -> bool) (le_decode : bytes -> bytes -> option bytes) (sig_of : bytes -> N)
         (cands_of : N -> bytes -> addr -> list key) (keys_of : N -> list key),
  (forall (g : N) (h : bytes) (src : addr) (k : key), In k (cands_of g h src) -> In k (keys_of g)) ->
  forall (T0 : Z) (c0 : cache) (g0 : N)
         (hs1 : list sop) (src0 : addr) (input0 : bytes) (t0 : Z)
         (hs2 : list sop) (src1 : addr) (input1 : bytes) (t1 : Z),
  new_cache streamReplayCapacity streamReplayInterval_ns T0 = Some c0 ->
  let s0 := mkServer g0 c0 in
  let front (s : server) :=
    tcp_front key open_hdr open_body_tcp le_ok le_decode (cands_of (s_users s)) sig_of cache is_duplicate (s_rc s) in
  t_created (fst (front (sfinal s0 hs1) src0 input0 t0)) <> [] ->
  firstn hdr_len input1 = firstn hdr_len input0 ->
  let x := sig_of (firstn sig_len (firstn hdr_len input0)) in
  mono_from t0 (presents hs2 ++ [(x, [], t1)]) ->
  t1 < t0 + streamReplayInterval_ns ->
  Z.of_nat (length (nodup N.eq_dec (remove N.eq_dec x (map op_sig (presents hs2))))) < streamReplayCapacity ->
  let r := fst (front (sfinal s0 (hs1 ++ Present (x, [], t0) :: hs2)) src1 input1 t1) in
  t_out r = [] /\ t_created r = [] /\ t_app r = [] /\ t_verdict r = V_replay.
Proof.
  intros * REG * NC s0 front ACC SAME x M T C.
  subst front. cbv beta in ACC |- *. rewrite sfinal_cache in ACC |- *. rewrite presents_app.
  (* the plain theorem at the traffic of the two histories; discovery is that of the generation current each time *)
  eapply C06_replay_rejected_tcp with (cands := cands_of _) (keys := keys_of _) (h1 := presents hs1) (T0 := T0).
  - exact (REG _).
  - exact NC.
  - exact ACC.
  - exact SAME.
  - exact M.
  - exact T.
  - exact C.
Qed.
Print Assumptions C06_replay_rejected_across_reload_tcp.

Theorem C06_replay_rejected_across_reload_udp :
  forall (key : Type) (user_of : key -> N) (open_hdr : key -> bytes -> option bytes)
         (open_body_udp : key -> bytes -> bytes -> option bytes) (le_ok : bytes -> bool)
         (le_decode : bytes -> bytes -> option bytes) (sig_of : bytes -> N)
         (cands_of : N -> bytes -> addr -> list key)
         (T0 : Z) (c0 : cache) (g0 : N)
         (hs1 : list sop) (ss0 : list (usession key)) (d : bytes) (srcA : addr) (t0 : Z)
         (hs2 : list sop) (ss1 : list (usession key)) (srcB : addr) (t1 : Z),
  new_cache packetReplayCapacity packetReplayInterval_ns T0 = Some c0 ->
  let s0 := mkServer g0 c0 in
  let front (s : server) (ss : list (usession key)) :=
    udp_front key user_of open_hdr open_body_udp le_ok le_decode (cands_of (s_users s)) sig_of cache is_duplicate
              (mkU key cache (s_rc s) ss) in
  (let r0 := fst (front (sfinal s0 hs1) ss0 d srcA t0) in
   u_created r0 <> [] \/ u_delivered r0 <> [] \/ u_out r0 <> []) ->
  srcB <> srcA ->
  let x := sig_of (firstn sig_len (firstn hdr_len d)) in
  mono_from t0 (presents hs2 ++ [(x, srcB, t1)]) ->
  t1 < t0 + packetReplayInterval_ns ->
  Z.of_nat (length (nodup N.eq_dec (remove N.eq_dec x (map op_sig (presents hs2))))) < packetReplayCapacity ->
  let r := front (sfinal s0 (hs1 ++ Present (x, srcA, t0) :: hs2)) ss1 d srcB t1 in
  u_out (fst r) = [] /\ u_created (fst r) = [] /\ u_delivered (fst r) = [] /\
  u_sessions (snd r) = ss1 /\
  (u_verdict (fst r) = V_replay_drop \/ u_verdict (fst r) = V_undecryptable).
Proof.
  intros * NC s0 front ACC NE x M T C.
  subst front. cbv beta in ACC |- *. rewrite sfinal_cache in ACC |- *. rewrite presents_app.
  eapply C06_replay_rejected_udp with (cands := cands_of _) (h1 := presents hs1) (T0 := T0).
  - exact NC.
  - exact ACC.
  - exact NE.
  - exact M.
  - exact T.
  - exact C.
Qed.
Print Assumptions C06_replay_rejected_across_reload_udp.
