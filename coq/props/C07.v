(* C07 — sessions are attributed to the authenticating user despite caches and reloads.
   U is the type of registered users of a generation (name and credential); hint u = "the segment's
   user hint names u", auth u = "u's credential opens the segment": arbitrary boolean functions
   (hint collisions and shared credentials allowed). *)
From Coq Require Import List NArith.
From M Require Import model.Discover model.SrcCache proofs.DiscoverProofs proofs.SrcCacheProofs.
Import ListNotations.
Open Scope N_scope.

(* the attributed user is registered under the returned id and its credential opens the segment;
   no fallback origin when hints are mandatory *)
Theorem C07_attr_sound : forall U (hint auth : U -> bool) users cached mandatory i u o,
  r_hit (try_state U hint auth users cached mandatory) = Some (i, u, o) ->
  user_by_id U users i = Some u /\ In u users /\ auth u = true /\ hint u = origin_hint o /\
  (mandatory = true -> origin_hint o = true).
Proof. exact attr_sound. Qed.
Print Assumptions C07_attr_sound.

(* a segment is refused only if no registered credential opens it; with mandatory hints: none of a
   user the hint names *)
Theorem C07_attr_complete : forall U (hint auth : U -> bool) users cached mandatory,
  r_hit (try_state U hint auth users cached mandatory) = None ->
  forall i u, user_by_id U users i = Some u -> (mandatory = true -> hint u = true) -> auth u = false.
Proof. exact attr_complete. Qed.
Print Assumptions C07_attr_complete.

(* accept/reject never depends on the cache content, whatever the credentials *)
Theorem C07_accept_iff : forall U (hint auth : U -> bool) users cached mandatory,
  r_hit (try_state U hint auth users cached mandatory) <> None <->
  exists i u, user_by_id U users i = Some u /\ auth u = true /\ (mandatory = true -> hint u = true).
Proof.
  intros U hint auth users cached mandatory. split.
  - destruct (r_hit (try_state U hint auth users cached mandatory)) as [[[i u] o]|] eqn:H; [intros _|congruence].
    destruct (attr_sound U hint auth users cached mandatory i u o H) as [H1 [_ [H2 [H3 H4]]]].
    exists i, u. repeat split; auto. intros Hm. rewrite H3. auto.
  - intros [i [u [H1 [H2 H3]]]] Hn.
    pose proof (attr_complete U hint auth users cached mandatory Hn i u H1 H3). congruence.
Qed.
Print Assumptions C07_accept_iff.

(* a client whose name the hint carries is never attributed to a user who merely shares its
   credential, whatever the cache holds *)
Theorem C07_attr_hint_pref : forall U (hint auth : U -> bool) users cached mandatory,
  (exists i u, user_by_id U users i = Some u /\ hint u = true /\ auth u = true) ->
  exists j v o, r_hit (try_state U hint auth users cached mandatory) = Some (j, v, o) /\
                hint v = true /\ origin_hint o = true.
Proof. exact attr_hint_pref. Qed.
Print Assumptions C07_attr_hint_pref.

(* a trial is an AEAD open of the header: a segment costs at most one per registered user, for every
   cached list that fits the attempted array ... *)
Theorem C07_attr_once : forall U (hint auth : U -> bool) users cached mandatory,
  N.of_nat (length cached) <= att_cap ->
  NoDup (r_tried (try_state U hint auth users cached mandatory)).
Proof. exact attr_once. Qed.
Print Assumptions C07_attr_once.

(* ... in particular for every list a reachable cache returns *)
Theorem C07_attr_once_reachable : forall U (hint auth : U -> bool) users mandatory bidx ops key now,
  NoDup (r_tried (try_state U hint auth users (lookup bidx (run bidx ops) key now) mandatory)).
Proof. exact attr_once_reachable. Qed.
Print Assumptions C07_attr_once_reachable.

(* only registered users of this generation are tried *)
Theorem C07_attr_tried_registered : forall U (hint auth : U -> bool) users cached mandatory i,
  In i (r_tried (try_state U hint auth users cached mandatory)) -> exists u, user_by_id U users i = Some u.
Proof. exact attr_tried_registered. Qed.
Print Assumptions C07_attr_tried_registered.

(* at most one registered user authenticates the segment: accept/reject and the user are the same
   for every cached list, hence for every cache content and source *)
Theorem C07_cache_independent : forall U (hint auth : U -> bool) users mandatory,
  distinct_credentials U auth users ->
  forall cached cached',
    outcome U (try_state U hint auth users cached mandatory) =
    outcome U (try_state U hint auth users cached' mandatory).
Proof. exact cache_independent. Qed.
Print Assumptions C07_cache_independent.

(* shared credentials: a unique hint-matching authenticating user is still the result for every cache *)
Theorem C07_cache_independent_hinted : forall U (hint auth : U -> bool) users mandatory i u,
  user_by_id U users i = Some u -> hint u = true -> auth u = true ->
  (forall j v, user_by_id U users j = Some v -> hint v = true -> auth v = true -> j = i) ->
  forall cached, outcome U (try_state U hint auth users cached mandatory) = Some (i, u).
Proof. exact cache_independent_hinted. Qed.
Print Assumptions C07_cache_independent_hinted.

(* requireCurrent: the generation used is the one returned by the final load; earlier attempts
   were discarded because the generation had been replaced; the user is registered in it *)
Theorem C07_discover_current : forall U (hint auth : U -> bool) its g i u o t,
  discover_loop U hint auth true its = DOk g i u o t ->
  exists pre it post,
    its = pre ++ it :: post /\ it_state it = Some g /\ it_check it = Some (g_id g) /\
    (forall it', In it' pre -> retried U it') /\
    user_by_id U (g_users g) i = Some u /\ In u (g_users g) /\ auth u = true /\
    (it_mand it = true -> hint u = true).
Proof. exact discover_current. Qed.
Print Assumptions C07_discover_current.

(* g_id read as the number of the publication (SetUsers call) that installed the generation: a
   discovery, in either mode, whose loads all follow publication k never uses an older generation *)
Theorem C07_discover_not_older : forall U (hint auth : U -> bool) rc its g i u o t k,
  discover_loop U hint auth rc its = DOk g i u o t ->
  (forall it g', In it its -> it_state it = Some g' -> k <= g_id g') ->
  k <= g_id g /\ user_by_id U (g_users g) i = Some u /\ In u (g_users g) /\ auth u = true.
Proof. exact discover_not_older. Qed.
Print Assumptions C07_discover_not_older.

(* a rejection was decided on a generation this call loaded, in which no eligible user authenticates *)
Theorem C07_discover_reject_complete : forall U (hint auth : U -> bool) rc its,
  discover_loop U hint auth rc its = DNoAuth ->
  exists it g, In it its /\ it_state it = Some g /\
    forall i u, user_by_id U (g_users g) i = Some u -> (it_mand it = true -> hint u = true) -> auth u = false.
Proof. exact discover_reject_complete. Qed.
Print Assumptions C07_discover_reject_complete.

(* ids returned by a lookup were recorded for that very key, at a tick whose age mod 2^32 is below
   the lifetime; never id 0 *)
Theorem C07_cache_lookup_sound : forall bidx ops key now id,
  In id (lookup bidx (run bidx ops) key now) ->
  id <> 0 /\ exists t, In (ORecord key id t) ops /\ age now t < life.
Proof. exact cache_lookup_sound. Qed.
Print Assumptions C07_cache_lookup_sound.

(* Tn, T0: unbounded tick counts of the lookup and the recording; unless 2^32 ticks or more lie
   between them the association is really younger than the lifetime (otherwise: age_alias) *)
Theorem C07_cache_lookup_sound_real : forall bidx ops key Tn id,
  In id (lookup bidx (run bidx ops) key (Tn mod W32)) ->
  exists t, In (ORecord key id t) ops /\
    forall T0, t = T0 mod W32 -> T0 <= Tn -> Tn - T0 < W32 -> Tn - T0 < life.
Proof. exact cache_lookup_sound_real. Qed.
Print Assumptions C07_cache_lookup_sound_real.

(* a lookup never returns more ids than tryState's attempted array holds (the premise of C07_attr_once) *)
Theorem C07_cache_lookup_bounded : forall bidx ops key now,
  N.of_nat (length (lookup bidx (run bidx ops) key now)) <= att_cap.
Proof. exact cache_lookup_bounded. Qed.
Print Assumptions C07_cache_lookup_bounded.

(* after retire() a cache answers nothing, whatever is recorded afterwards *)
Theorem C07_cache_retired_inert : forall bidx ops ops' key now,
  lookup bidx (fold_left (step bidx) ops' (run bidx (ops ++ [ORetire]))) key now = [].
Proof. exact cache_retired_inert. Qed.
Print Assumptions C07_cache_retired_inert.

(* UDP existing-session shortcut: it applies only to a session from exactly the same socket
   address whose cipher opens the datagram *)
Theorem C07_shortcut_same_peer : forall opens ss ip port s,
  shortcut same_peer opens ss ip port = Some s ->
  In s ss /\ us_ip s = ip /\ us_port s = port /\ opens s = true.
Proof. exact shortcut_same_peer. Qed.
Print Assumptions C07_shortcut_same_peer.

(* sessions from other sockets (same IP or not, ciphers that open the datagram or not) never
   influence the attribution of a first segment *)
Theorem C07_shortcut_other_sockets_irrelevant : forall opens ss ip port disc,
  (forall s, In s ss -> us_ip s = ip -> us_port s <> port) ->
  udp_attribute same_peer opens ss ip port disc = disc.
Proof. exact shortcut_other_sockets_irrelevant. Qed.
Print Assumptions C07_shortcut_other_sockets_irrelevant.

(* every new UDP session is attributed what discovery answers for its first segment, whatever the
   order of openings and the session ciphers (shared credentials).  D is discovery's answer per
   socket for the whole history: a reload that changes it is outside the statement *)
Theorem C07_existing_session_shortcut_sound : forall D evs ss,
  sessions_ok D ss ->
  (forall e, In e evs -> ev_disc e = D (ev_ip e) (ev_port e)) ->
  snd (udp_run same_peer ss evs) = map ev_disc evs /\ sessions_ok D (fst (udp_run same_peer ss evs)).
Proof. exact existing_session_shortcut_sound. Qed.
Print Assumptions C07_existing_session_shortcut_sound.

(* and the port comparison is necessary for that *)
Theorem C07_shortcut_port_needed :
  exists evs D, sessions_ok D [] /\ (forall e, In e evs -> ev_disc e = D (ev_ip e) (ev_port e)) /\
    snd (udp_run ip_only_peer [] evs) <> map ev_disc evs.
Proof. exact shortcut_port_needed. Qed.
Print Assumptions C07_shortcut_port_needed.
