(* C08 — clocks within one minute always agree on keys; stale segments are refused.
   The property theorems; each is the last step from lemmas of proofs/KeyTimeProofs.v (model) and
   proofs/TranslatedTimeProofs.v (the translated source of the timestamp test). *)
From Coq Require Import ZArith List Lia.
From M Require Import gen.Consts model.KeyTime proofs.KeyTimeProofs.
From M Require Import base.MiniGo gen.Translated proofs.TranslatedTimeProofs.
Open Scope Z_scope.

(* |skew| <= 60 s: common key and mutually accepted timestamps, at every instant of the uint32-minute era *)
Theorem C08_handshake_within_60s : forall t d : Z,
  era t -> era (t + d) -> Z.abs d <= 60 * NS ->
  handshake_ok t (t + d) /\ handshake_ok (t + d) t.
Proof. intros t d Ht Htd Hd. split; apply handshake_within; try assumption; unfold S60; lia. Qed.
Print Assumptions C08_handshake_within_60s.

(* a key derived up to 120 s (one refresh interval) away is still among the receiver's three *)
Theorem C08_key_within_120s : forall t d : Z,
  Z.abs d <= 120 * NS -> In (epoch KeyRefreshInterval_ns t) (slots KeyRefreshInterval_ns (t + d)).
Proof. intros t d Hd. apply key_common. replace (t + d - t) with d by lia. exact Hd. Qed.
Print Assumptions C08_key_within_120s.

(* >= 2 minutes: timestamp refused; >= 4 minutes: no common key *)
Theorem C08_stale_refused : forall t d : Z,
  era t -> era (t + d) ->
  (120 * NS <= Z.abs d -> timestamp_ok (t + d) t = false) /\
  (240 * NS <= Z.abs d -> ~ In (epoch KeyRefreshInterval_ns t) (slots KeyRefreshInterval_ns (t + d))).
Proof. intros t d Ht Htd. split; intros H; [apply stale_minute_refused | apply stale_key_refused]; assumption. Qed.
Print Assumptions C08_stale_refused.

(* every history of cache lookups (arbitrary times and jitter draws): keys handed out are those of the slot of [now] *)
Theorem C08_cache_slot_exact : forall (h : list (Z * Z)) (now j : Z),
  let '(_, e, _) := cache_lookup KeyRefreshInterval_ns cacheValidInterval_ns
                      (cache_run KeyRefreshInterval_ns cacheValidInterval_ns None h) now j in
  e_epoch e = epoch KeyRefreshInterval_ns now /\ e_keys e = slots KeyRefreshInterval_ns now.
Proof. exact (cache_slot_exact cacheValidInterval_ns). Qed.
Print Assumptions C08_cache_slot_exact.

(* the per-decryptor slot in front of the cache (StatelessDecryptor.tryDecryptAt) hands out the keys of the slot of [now],
   whatever the two slots held *)
Theorem C08_decryptor_slot_exact : forall V (d c : option entry) (now j : Z),
  cache_ok d -> cache_ok c ->
  let '(e, d', c') := decryptor_lookup KeyRefreshInterval_ns V d c now j in
  cache_ok d' /\ cache_ok c' /\ e_epoch e = epoch KeyRefreshInterval_ns now /\ e_keys e = slots KeyRefreshInterval_ns now.
Proof. exact decryptor_slot_exact. Qed.
Print Assumptions C08_decryptor_slot_exact.

(* The age of the key-holding client underlay, the second dimension besides the skew.
   A UDP client underlay created at client time c holds the key of slot(c) and takes new sessions while
   age <= packetUnderlayScheduleWindow_ns (measured on the compiled NewPacketUnderlay, M.gen.Consts);
   the server, at c + age + skew, tries its three slots. *)
Theorem C08_aged_underlay_common_key : forall c age skew : Z,
  0 <= age -> underlay_takes_sessions packetUnderlayScheduleWindow_ns age = true -> Z.abs skew <= 60 * NS ->
  In (epoch KeyRefreshInterval_ns c) (slots KeyRefreshInterval_ns (c + age + skew)).
Proof. exact aged_underlay_common_key. Qed.
Print Assumptions C08_aged_underlay_common_key.

(* the whole open of a new session on an aged underlay: key found by the server, fresh minute stamp accepted by the
   server, and the stamp of the server's reply accepted by the client *)
Theorem C08_aged_underlay_handshake : forall c age skew : Z,
  era (c + age) -> era (c + age + skew) ->
  0 <= age -> underlay_takes_sessions packetUnderlayScheduleWindow_ns age = true -> Z.abs skew <= 60 * NS ->
  open_request_ok KeyRefreshInterval_ns c (c + age) skew = true /\ timestamp_ok (c + age) (c + age + skew) = true.
Proof. exact aged_underlay_handshake. Qed.
Print Assumptions C08_aged_underlay_handshake.

(* the window of the code is the largest safe one: every larger window admits an age inside it and a skew of at
   most 60 s for which the server does not try the underlay's key *)
Theorem C08_underlay_window_maximal : forall w : Z,
  packetUnderlayScheduleWindow_ns < w ->
  exists c age skew, 0 <= age /\ underlay_takes_sessions w age = true /\ Z.abs skew <= 60 * NS /\
                     ~ In (epoch KeyRefreshInterval_ns c) (slots KeyRefreshInterval_ns (c + age + skew)).
Proof. exact underlay_window_maximal. Qed.
Print Assumptions C08_underlay_window_maximal.

(* in particular a window of one whole refresh interval ("the receiver tries three slots") is refuted by a witness:
   underlay created 1 ns before a slot change, 90 s old, server 60 s ahead *)
Theorem C08_full_refresh_window_refuted :
  exists c age skew, 0 <= age /\ underlay_takes_sessions KeyRefreshInterval_ns age = true /\ Z.abs skew <= 60 * NS /\
                     ~ In (epoch KeyRefreshInterval_ns c) (slots KeyRefreshInterval_ns (c + age + skew)) /\
                     key_found KeyRefreshInterval_ns (epoch KeyRefreshInterval_ns c) (c + age + skew) = false.
Proof. exact full_refresh_window_refuted. Qed.
Print Assumptions C08_full_refresh_window_refuted.

(* TCP: a stream underlay's key is matched by the server once, on the first segment of the connection; the only
   age is the latency between the client's key derivation (dial) and the server's read of that segment.  Sessions
   opened later on the connection use the running stateful cipher and no time slot at all. *)
Theorem C08_stream_first_segment_common_key : forall c latency skew : Z,
  0 <= latency <= 60 * NS -> Z.abs skew <= 60 * NS ->
  In (epoch KeyRefreshInterval_ns c) (slots KeyRefreshInterval_ns (c + latency + skew)).
Proof. intros c latency skew Hl Hs. apply key_common. unfold S60. lia. Qed.
Print Assumptions C08_stream_first_segment_common_key.

(* The current source of the timestamp test (gen/Translated.v, regenerated from /repo on every run):
   mathext.Mid and mathext.WithinRange at uint32 are the model's mid3 / within_range32 - the function under
   timestamp_ok in C08_handshake_within_60s and C08_stale_refused - for all arguments; and the stamp written by
   sessionStruct.Marshal at a clock of [t / NS] seconds is the model's minute(t). *)
Theorem C08_source_mid : forall a b c : Z, xl_mathext_Mid_uint32 a b c = mid3 a b c.
Proof. exact xl_Mid_uint32_eq_model. Qed.
Print Assumptions C08_source_mid.

Theorem C08_source_within_range : forall v target margin : Z,
  xl_mathext_WithinRange_uint32 v target margin = within_range32 v target margin.
Proof. exact xl_WithinRange_uint32_eq_model. Qed.
Print Assumptions C08_source_within_range.

Theorem C08_source_stamp_is_minute : forall t : Z, stamp (t / NS) = minute t.
Proof. exact stamp_minute. Qed.
Print Assumptions C08_source_stamp_is_minute.
