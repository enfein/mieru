(* C09 — what goes on the wire is exactly the documented protocol (docs/protocol.md).
   The model (model/Wire.v) transcribes the three metadata tables, the protocol type numbers and the nonce
   increment; SHA-256, PBKDF2 and the AEAD are uninterpreted (Section variables), so conformance of key
   derivation, hint and sealed boxes is established by vectors and interop runs (harness/cmd/c09), not here.
   Non-vacuity examples: ex_* in proofs/WireProofs.v. *)
From Coq Require Import NArith ZArith List Bool Lia.
From M Require Import gen.Consts model.Wire proofs.WireProofs.
From M Require Import model.KeyTime proofs.KeyTimeProofs proofs.WireKeyTimeProofs.
From M Require Import base.MiniGo gen.Translated proofs.TranslatedWireProofs proofs.TranslatedCipherProofs.
From M Require Import proofs.TranslatedTimeProofs proofs.TranslatedMetadataProofs.
Import ListNotations.
Open Scope N_scope.

(* constants: a changed constant of /repo breaks these *)

Theorem C09_consts_keygen : C09_KeyIter = 64%Z /\ C09_KeyRefreshInterval_s = 120%Z.
Proof. exact consts_keygen. Qed.
Print Assumptions C09_consts_keygen.

Theorem C09_consts_sizes :
  MetadataLength = 32 /\ MaxSessionOpenPayload = 1024 /\ NonceSize = 24 /\ TagOverhead = 16 /\
  C09_KeyLen = 32%Z /\ HintInputLen = 16 /\ HintLen = 4 /\ maxPDU = 32768 /\ chunkLen = 8.
Proof. exact consts_sizes. Qed.
Print Assumptions C09_consts_sizes.

Theorem C09_consts_types :
  T_openSessionRequest = 2 /\ T_openSessionResponse = 3 /\ T_closeSessionRequest = 4 /\ T_closeSessionResponse = 5 /\
  T_dataClientToServer = 6 /\ T_dataServerToClient = 7 /\ T_ackClientToServer = 8 /\ T_ackServerToClient = 9 /\
  T_dataClientToServerLE = 10 /\ T_dataServerToClientLE = 11.
Proof. exact consts_types. Qed.
Print Assumptions C09_consts_types.

Theorem C09_consts_overheads :
  Z.to_N C09_streamOverhead = MetadataLength + 2 * TagOverhead /\
  Z.to_N C09_packetOverhead = NonceSize + MetadataLength + 2 * TagOverhead /\
  Z.to_N C09_packetNonHeaderPosition = NonceSize + MetadataLength + TagOverhead.
Proof. exact consts_overheads. Qed.
Print Assumptions C09_consts_overheads.

Theorem C09_consts_modes :
  map mode_source_bytes [0; 1; 2; 3; 4; 5; 6; 7] = [0; 4; 5; 6; 7; 0; 0; 0] /\
  map mode_mask_ones [0; 1; 2; 3; 4; 5; 6; 7] = [0; 16; 20; 24; 28; 0; 0; 0] /\
  (forall m, 8 <= m -> mode_source_bytes m = 0).
Proof. exact consts_modes. Qed.
Print Assumptions C09_consts_modes.

(* protocol type numbers partition the byte values as documented *)

Theorem C09_classification : forall p, p < 256 ->
  is_session p = ((2 <=? p) && (p <=? 5)) /\
  is_data p = ((p =? 6) || (p =? 7) || (p =? 10) || (p =? 11)) /\
  is_ack p = ((p =? 8) || (p =? 9)) /\
  is_low_entropy p = ((p =? 10) || (p =? 11)) /\
  is_data_ack p = ((6 <=? p) && (p <=? 11)).
Proof. exact classification. Qed.
Print Assumptions C09_classification.

Theorem C09_partition : forall p, p < 256 ->
  (is_session p && is_data_ack p = false) /\ (is_data p && is_ack p = false) /\
  (is_data_ack p = is_data p || is_ack p) /\ (is_low_entropy p = true -> is_data p = true) /\
  (is_session p || is_data_ack p = ((2 <=? p) && (p <=? 11))).
Proof. exact partition. Qed.
Print Assumptions C09_partition.

(* offsets: each conjunct is one row of the document's table (quoted in model/Wire.v): bytes [offset, offset+width) = the
   field, big endian *)

Theorem C09_meta_offsets_session : forall m,
  slice 0 1 (marshal_session m) = [b8 (s_proto m)] /\
  slice 1 1 (marshal_session m) = zeros 1 /\
  slice 2 4 (marshal_session m) = be32 (s_ts m) /\
  slice 6 4 (marshal_session m) = be32 (s_sid m) /\
  slice 10 4 (marshal_session m) = be32 (s_seq m) /\
  slice 14 1 (marshal_session m) = [b8 (s_status m)] /\
  slice 15 2 (marshal_session m) = be16 (s_plen m) /\
  slice 17 1 (marshal_session m) = [b8 (s_slen m)] /\
  slice 18 14 (marshal_session m) = zeros 14 /\
  length (marshal_session m) = 32%nat.
Proof.
  exact (fun m => conj (session_row_protocol_type m) (conj (session_row_unused_1 m) (conj (session_row_timestamp m)
    (conj (session_row_session_id m) (conj (session_row_sequence_number m) (conj (session_row_status_code m)
    (conj (session_row_payload_length m) (conj (session_row_suffix_length m) (conj (session_row_unused_14 m)
    (session_rows_cover m)))))))))).
Qed.
Print Assumptions C09_meta_offsets_session.

Theorem C09_meta_offsets_data : forall m, is_low_entropy (b8 (d_proto m)) = false ->
  slice 0 1 (marshal_data m) = [b8 (d_proto m)] /\
  slice 1 1 (marshal_data m) = zeros 1 /\
  slice 2 4 (marshal_data m) = be32 (d_ts m) /\
  slice 6 4 (marshal_data m) = be32 (d_sid m) /\
  slice 10 4 (marshal_data m) = be32 (d_seq m) /\
  slice 14 4 (marshal_data m) = be32 (d_unack m) /\
  slice 18 2 (marshal_data m) = be16 (d_win m) /\
  slice 20 1 (marshal_data m) = [b8 (d_frag m)] /\
  slice 21 1 (marshal_data m) = [b8 (d_prefix m)] /\
  slice 22 2 (marshal_data m) = be16 (d_plen m) /\
  slice 24 1 (marshal_data m) = [b8 (d_slen m)] /\
  slice 25 7 (marshal_data m) = zeros 7 /\
  length (marshal_data m) = 32%nat.
Proof.
  exact (fun m H => conj (data_row_protocol_type m) (conj (data_row_unused_1 m H) (conj (data_row_timestamp m)
    (conj (data_row_session_id m) (conj (data_row_sequence_number m) (conj (data_row_unack_sequence_number m)
    (conj (data_row_window_size m) (conj (data_row_fragment_number m) (conj (data_row_prefix_length m)
    (conj (data_row_payload_length m) (conj (data_row_suffix_length m) (conj (data_row_unused_7 m H)
    (data_rows_cover m))))))))))))).
Qed.
Print Assumptions C09_meta_offsets_data.

Theorem C09_meta_offsets_low_entropy : forall m, is_low_entropy (b8 (d_proto m)) = true ->
  slice 0 1 (marshal_data m) = [b8 (d_proto m)] /\
  slice 1 1 (marshal_data m) = [b8 (d_mode m)] /\
  slice 2 4 (marshal_data m) = be32 (d_ts m) /\
  slice 6 4 (marshal_data m) = be32 (d_sid m) /\
  slice 10 4 (marshal_data m) = be32 (d_seq m) /\
  slice 14 4 (marshal_data m) = be32 (d_unack m) /\
  slice 18 2 (marshal_data m) = be16 (d_win m) /\
  slice 20 1 (marshal_data m) = [b8 (d_frag m)] /\
  slice 21 1 (marshal_data m) = [b8 (d_prefix m)] /\
  slice 22 2 (marshal_data m) = be16 (d_plen m) /\
  slice 24 1 (marshal_data m) = [b8 (d_slen m)] /\
  slice 25 4 (marshal_data m) = be32 (d_mask m) /\
  slice 29 2 (marshal_data m) = be16 (d_elen m) /\
  slice 31 1 (marshal_data m) = [b8 (d_rot m)] /\
  length (marshal_data m) = 32%nat.
Proof.
  exact (fun m H => conj (data_row_protocol_type m) (conj (le_row_low_entropy_mode m H) (conj (data_row_timestamp m)
    (conj (data_row_session_id m) (conj (data_row_sequence_number m) (conj (data_row_unack_sequence_number m)
    (conj (data_row_window_size m) (conj (data_row_fragment_number m) (conj (data_row_prefix_length m)
    (conj (data_row_payload_length m) (conj (data_row_suffix_length m) (conj (le_row_low_entropy_mask m H)
    (conj (le_row_extracted_payload_length m H) (conj (le_row_low_entropy_mask_rotation m H)
    (data_rows_cover m))))))))))))))).
Qed.
Print Assumptions C09_meta_offsets_low_entropy.

(* be16/be32 are big endian: the value of the bytes, most significant first, is the field *)
Theorem C09_big_endian : forall v,
  be_val (be16 v) = v mod 2 ^ 16 /\ be_val (be32 v) = v mod 2 ^ 32 /\ be_val [1; 2; 3; 4] = 16909060.
Proof. exact (fun v => conj (be_val_be16 v) (conj (be_val_be32 v) eq_refl)). Qed.
Print Assumptions C09_big_endian.

(* Marshal always yields MetadataLength bytes, all below 256 (for every field value, valid or not) *)

Theorem C09_marshal_length :
  (forall m, N.of_nat (length (marshal_session m)) = MetadataLength /\ Forall byte_ok (marshal_session m)) /\
  (forall m, N.of_nat (length (marshal_data m)) = MetadataLength /\ Forall byte_ok (marshal_data m)).
Proof. exact (conj marshal_session_length marshal_data_length). Qed.
Print Assumptions C09_marshal_length.

(* round trips on the valid metadata of each layout; hence Marshal is injective there *)

Theorem C09_meta_roundtrip_session : forall m, session_valid m -> unmarshal_session (marshal_session m) = Some m.
Proof. exact session_roundtrip. Qed.
Print Assumptions C09_meta_roundtrip_session.

Theorem C09_meta_roundtrip_data : forall m, data_valid m -> unmarshal_data (marshal_data m) = Some m.
Proof. exact data_roundtrip. Qed.
Print Assumptions C09_meta_roundtrip_data.

Theorem C09_meta_roundtrip_low_entropy : forall m, le_valid m -> unmarshal_data (marshal_data m) = Some m.
Proof. exact le_roundtrip. Qed.
Print Assumptions C09_meta_roundtrip_low_entropy.

Theorem C09_marshal_injective :
  (forall m1 m2, session_valid m1 -> session_valid m2 -> marshal_session m1 = marshal_session m2 -> m1 = m2) /\
  (forall m1 m2, data_valid m1 \/ le_valid m1 -> data_valid m2 \/ le_valid m2 -> marshal_data m1 = marshal_data m2 -> m1 = m2).
Proof.
  split; intros m1 m2 V1 V2 E.
  - pose proof (session_roundtrip m1 V1) as R. rewrite E, (session_roundtrip m2 V2) in R. congruence.
  - pose proof (data_ack_roundtrip m1 V1) as R. rewrite E, (data_ack_roundtrip m2 V2) in R. congruence.
Qed.
Print Assumptions C09_marshal_injective.

(* nonce: +1 on the 24-byte big-endian integer, wrapping at 2^192; the k-th encryption of a TCP direction uses
        nonce0 + k, so no nonce repeats within 2^192 encryptions *)

Theorem C09_nonce_inc_is_succ : forall n, N.of_nat (length n) = NonceSize -> Forall byte_ok n ->
  be_val (nonce_inc n) = (be_val n + 1) mod 2 ^ 192 /\
  N.of_nat (length (nonce_inc n)) = NonceSize /\ Forall byte_ok (nonce_inc n).
Proof. exact nonce_inc_is_succ. Qed.
Print Assumptions C09_nonce_inc_is_succ.

Theorem C09_nonce_progression : forall k n, N.of_nat (length n) = NonceSize -> Forall byte_ok n ->
  be_val (nonce_iter k n) = (be_val n + N.of_nat k) mod 2 ^ 192.
Proof. exact nonce_iter_val. Qed.
Print Assumptions C09_nonce_progression.

Theorem C09_nonce_never_repeats : forall j k n, N.of_nat (length n) = NonceSize -> Forall byte_ok n ->
  (j < k)%nat -> N.of_nat (k - j) < 2 ^ 192 -> nonce_iter j n <> nonce_iter k n.
Proof. exact nonce_iter_distinct. Qed.
Print Assumptions C09_nonce_never_repeats.

(* user hint and datagram layout, for every hash H with 32-byte output and every AEAD with a 16-byte tag *)

Theorem C09_user_hint_placement : forall (H : list N -> list N), (forall x, length (H x) = 32%nat) ->
  forall user nonce, N.of_nat (length nonce) = NonceSize ->
  length (set_user_hint H user nonce) = length nonce /\
  firstn 20 (set_user_hint H user nonce) = firstn 20 nonce /\
  skipn 20 (set_user_hint H user nonce) = firstn 4 (H (user ++ firstn 16 nonce)) /\
  set_user_hint H user (set_user_hint H user nonce) = set_user_hint H user nonce.
Proof.
  intros H H_len user nonce Hl. change NonceSize with 24 in Hl. assert (L : length nonce = 24%nat) by lia.
  pose proof (set_user_hint_spec H H_len user nonce) as S. rewrite L in S |- *. apply S. cbv; lia.
Qed.
Print Assumptions C09_user_hint_placement.

Theorem C09_udp_datagram_length : forall (seal : list N -> list N -> list N -> list N),
  (forall k n p, length (seal k n p) = (length p + N.to_nat TagOverhead)%nat) ->
  forall key nonce meta pad1 payload pad2,
  N.of_nat (length nonce) = NonceSize -> N.of_nat (length meta) = MetadataLength ->
  length (udp_datagram seal key nonce meta pad1 payload pad2 (fun x => x)) =
  (N.to_nat (Z.to_N C09_packetNonHeaderPosition) + length pad1 +
   (match payload with [] => 0 | _ => length payload + N.to_nat TagOverhead end) + length pad2)%nat.
Proof. exact udp_datagram_length. Qed.
Print Assumptions C09_udp_datagram_length.

(* UDP: the key of a server->client datagram is the key of the most recent authentic client datagram of that session
        (Session.input stores the block of every segment), so a peer that derives its key from its current time, as the
        document says, can read the reply with one of the three salts around its clock (|d| <= 120 s between sending
        and reading); a session that kept its FIRST key would not be readable from 240 s on *)

Theorem C09_udp_reply_key_follows_peer : forall (st : option Z) (ts : list Z) (t d : Z),
  (Z.abs d <= 120 * NS)%Z ->
  sess_run Z st (map (epoch KeyRefreshInterval_ns) (ts ++ [t])) = Some (epoch KeyRefreshInterval_ns t) /\
  In (epoch KeyRefreshInterval_ns t) (slots KeyRefreshInterval_ns (t + d)%Z).
Proof. exact udp_reply_key_follows_peer. Qed.
Print Assumptions C09_udp_reply_key_follows_peer.

(* records the fold only: Wire.sess_input keeps the last key whatever the state.  The content is the modelling claim that
   Session.input stores the block of every segment, which the comparison runs of the check tie to /repo *)
Theorem C09_udp_reply_key_any_history : forall (K : Type) (st : option K) (ks : list K) (k : K),
  sess_run K st (ks ++ [k]) = Some k /\ sess_run K st [] = st.
Proof. exact (fun K st ks k => conj (sess_run_last st ks k) (sess_run_nil st)). Qed.
Print Assumptions C09_udp_reply_key_any_history.

Theorem C09_udp_first_key_goes_stale : forall t0 t : Z,
  era t0 -> era t -> (240 * NS <= Z.abs (t - t0))%Z ->
  ~ In (epoch KeyRefreshInterval_ns t0) (slots KeyRefreshInterval_ns t).
Proof. exact udp_first_key_goes_stale. Qed.
Print Assumptions C09_udp_first_key_goes_stale.

(* From here on: the current source (gen/Translated.v, translated from /repo by harness/cmd/go2coq on every run, semantics
   of base/MiniGo.v) equals the model.  The protocol type predicates (protocolType is a uint8 carried as Z): *)

Theorem C09_source_protocol_predicates : forall p : N,
  xl_protocol_isSessionProtocol (Z.of_N p) = is_session p /\
  xl_protocol_isDataProtocol (Z.of_N p) = is_data p /\
  xl_protocol_isAckProtocol (Z.of_N p) = is_ack p /\
  xl_protocol_isDataAckProtocol (Z.of_N p) = is_data_ack p /\
  xl_protocol_isLowEntropyProtocol (Z.of_N p) = is_low_entropy p.
Proof.
  exact (fun p => conj (xl_isSessionProtocol_eq_model p) (conj (xl_isDataProtocol_eq_model p)
           (conj (xl_isAckProtocol_eq_model p) (conj (xl_isDataAckProtocol_eq_model p) (xl_isLowEntropyProtocol_eq_wire p))))).
Qed.
Print Assumptions C09_source_protocol_predicates.

(* (c *aeadBlockCipher) increaseNonce (the receiver's fields enableImplicitNonce and implicitNonce are parameters, the
   assigned implicitNonce is the result, None = panic; bytes are Z) computes nonce_inc for every non-empty nonce of bytes
   with implicit nonce mode on (Go slice lengths are below 2^63); hence the progression and non-repetition of its calls *)

Theorem C09_source_nonce_inc : forall n : list N,
  n <> [] -> Forall byte_ok n -> (Z.of_nat (length n) < 2 ^ 63)%Z ->
  xl_cipher_increaseNonce true (map Z.of_N n) = Some (map Z.of_N (nonce_inc n)).
Proof. exact xl_increaseNonce_eq_model. Qed.
Print Assumptions C09_source_nonce_inc.

Theorem C09_source_nonce_progression : forall k n, N.of_nat (length n) = NonceSize -> Forall byte_ok n ->
  exists m, xl_nonce_iter k (map Z.of_N n) = Some (map Z.of_N m) /\ be_val m = (be_val n + N.of_nat k) mod 2 ^ 192.
Proof.
  intros k n Hl Hok. exists (nonce_iter k n).
  split; [apply xl_nonce_iter_eq_model | apply nonce_iter_val]; assumption.
Qed.
Print Assumptions C09_source_nonce_progression.

Theorem C09_source_nonce_never_repeats : forall j k n, N.of_nat (length n) = NonceSize -> Forall byte_ok n ->
  (j < k)%nat -> N.of_nat (k - j) < 2 ^ 192 ->
  exists a b, xl_nonce_iter j (map Z.of_N n) = Some a /\ xl_nonce_iter k (map Z.of_N n) = Some b /\ a <> b.
Proof.
  intros j k n Hl Hok Hjk Hd. exists (zs (nonce_iter j n)), (zs (nonce_iter k n)).
  repeat split; try (apply xl_nonce_iter_eq_model; assumption).
  intro E. apply zs_inj in E. exact (nonce_iter_distinct j k n Hl Hok Hjk Hd E).
Qed.
Print Assumptions C09_source_nonce_never_repeats.

(* the metadata codecs (the receiver's fields are parameters, the assigned fields are results, the clock
   time.Now().Unix() is the parameter [now], bytes are Z): sessionStruct.Marshal and
   dataAckStruct.Marshal write exactly the documented layouts (Wire.marshal_session / marshal_data, the objects of
   C09_meta_offsets_.. and C09_meta_roundtrip_..) with the stamp uint32(now / 60); sessionStruct.Unmarshal accepts exactly
   the strings Wire.unmarshal_session accepts whose stamp is within one minute of the receiver's clock, returns their
   fields, and otherwise returns an error leaving the receiver untouched; it never panics (None) on any byte string *)
(* the statements about the translated codecs are over Z *)
Open Scope Z_scope.

Theorem C09_source_marshal_session : forall (m : session_meta) (ts0 now : Z),
  session_in_range m -> - 2 ^ 63 <= now < 2 ^ 63 ->
  xl_protocol_sessionStruct_Marshal (Z.of_N (s_proto m)) ts0 (Z.of_N (s_sid m)) (Z.of_N (s_seq m))
    (Z.of_N (s_status m)) (Z.of_N (s_plen m)) (Z.of_N (s_slen m)) now
  = (zs (marshal_session (with_ts m (Z.to_N (stamp now)))), stamp now).
Proof.
  intros m ts0 now (Hp & _ & _ & _ & Hst & _ & Hsl) Hnow. apply xl_sessionStruct_Marshal_eq_model; assumption.
Qed.
Print Assumptions C09_source_marshal_session.

Theorem C09_source_marshal_data : forall (m : data_meta) (ts0 now : Z),
  data_in_range m -> - 2 ^ 63 <= now < 2 ^ 63 ->
  xl_protocol_dataAckStruct_Marshal (Z.of_N (d_proto m)) ts0 (Z.of_N (d_mode m)) (Z.of_N (d_sid m)) (Z.of_N (d_seq m))
    (Z.of_N (d_unack m)) (Z.of_N (d_win m)) (Z.of_N (d_frag m)) (Z.of_N (d_prefix m)) (Z.of_N (d_plen m))
    (Z.of_N (d_slen m)) (Z.of_N (d_mask m)) (Z.of_N (d_elen m)) (Z.of_N (d_rot m)) now
  = (zs (marshal_data (with_dts m (Z.to_N (stamp now)))), stamp now).
Proof.
  intros m ts0 now (Hp & Hmo & _ & _ & _ & _ & Hfr & Hpre & _ & Hsl & _ & _ & Hro) Hnow.
  apply xl_dataAckStruct_Marshal_eq_model; assumption.
Qed.
Print Assumptions C09_source_marshal_data.

Theorem C09_source_unmarshal_session : forall (b : list N) (p0 t0 i0 q0 c0 l0 x0 now : Z),
  Forall (fun x => (x < 256)%N) b -> - 2 ^ 63 <= now < 2 ^ 63 ->
  xl_protocol_sessionStruct_Unmarshal (zs b) p0 t0 i0 q0 c0 l0 x0 now =
  Some (match unmarshal_session b with
        | Some m => if within_range32 (stamp now) (Z.of_N (s_ts m)) 1
                    then (false, Z.of_N (s_proto m), Z.of_N (s_ts m), Z.of_N (s_sid m), Z.of_N (s_seq m),
                          Z.of_N (s_status m), Z.of_N (s_plen m), Z.of_N (s_slen m))
                    else (true, p0, t0, i0, q0, c0, l0, x0)
        | None => (true, p0, t0, i0, q0, c0, l0, x0)
        end).
Proof. intros b p0 t0 i0 q0 c0 l0 x0 now _. apply xl_sessionStruct_Unmarshal_eq_model. Qed.
Print Assumptions C09_source_unmarshal_session.

(* both together: what the source's Marshal writes at the sender's clock, the source's Unmarshal reads back at the
   receiver's clock - same fields, the sender's stamp - iff the two minute counters are within one *)
Theorem C09_source_session_roundtrip : forall (m : session_meta) (ts0 ns nr p0 t0 i0 q0 c0 l0 x0 : Z),
  session_valid m -> - 2 ^ 63 <= ns < 2 ^ 63 -> - 2 ^ 63 <= nr < 2 ^ 63 ->
  let '(b, ts) := xl_protocol_sessionStruct_Marshal (Z.of_N (s_proto m)) ts0 (Z.of_N (s_sid m)) (Z.of_N (s_seq m))
                    (Z.of_N (s_status m)) (Z.of_N (s_plen m)) (Z.of_N (s_slen m)) ns in
  ts = stamp ns /\
  xl_protocol_sessionStruct_Unmarshal b p0 t0 i0 q0 c0 l0 x0 nr =
  Some (if within_range32 (stamp nr) (stamp ns) 1
        then (false, Z.of_N (s_proto m), stamp ns, Z.of_N (s_sid m), Z.of_N (s_seq m), Z.of_N (s_status m),
              Z.of_N (s_plen m), Z.of_N (s_slen m))
        else (true, p0, t0, i0, q0, c0, l0, x0)).
Proof. exact xl_session_marshal_unmarshal. Qed.
Print Assumptions C09_source_session_roundtrip.

(* the same pair across two clocks, sender at instant t (unix ns), receiver at t + d (the C08 window, stated here because
   it depends on the codec proofs) *)
Theorem C09_source_session_timestamp_window : forall (m : session_meta) (ts0 t d p0 t0 i0 q0 c0 l0 x0 : Z),
  session_valid m -> era t -> era (t + d) ->
  let '(b, ts) := xl_protocol_sessionStruct_Marshal (Z.of_N (s_proto m)) ts0 (Z.of_N (s_sid m)) (Z.of_N (s_seq m))
                    (Z.of_N (s_status m)) (Z.of_N (s_plen m)) (Z.of_N (s_slen m)) (t / NS) in
  (Z.abs d <= 60 * NS ->
     xl_protocol_sessionStruct_Unmarshal b p0 t0 i0 q0 c0 l0 x0 ((t + d) / NS) =
     Some (false, Z.of_N (s_proto m), minute t, Z.of_N (s_sid m), Z.of_N (s_seq m), Z.of_N (s_status m),
           Z.of_N (s_plen m), Z.of_N (s_slen m))) /\
  (120 * NS <= Z.abs d ->
     xl_protocol_sessionStruct_Unmarshal b p0 t0 i0 q0 c0 l0 x0 ((t + d) / NS) = Some (true, p0, t0, i0, q0, c0, l0, x0)).
Proof.
  intros m ts0 t d p0 t0 i0 q0 c0 l0 x0 Hv Ht Htd.
  pose proof (xl_session_marshal_unmarshal m ts0 (t / NS) ((t + d) / NS) p0 t0 i0 q0 c0 l0 x0 Hv
               (era_seconds _ Ht) (era_seconds _ Htd)) as H.
  destruct (xl_protocol_sessionStruct_Marshal _ _ _ _ _ _ _ _) as [b ts].
  destruct H as [_ H]. rewrite !stamp_minute in H.
  change (within_range32 (minute (t + d)) (minute t) 1) with (timestamp_ok (t + d) t) in H.
  split; intro Hd; rewrite H.
  - rewrite (skew60_timestamp t d Ht Htd) by (unfold S60; lia). reflexivity.
  - rewrite (stale_minute_refused t d Ht Htd) by (unfold S60; lia). reflexivity.
Qed.
Print Assumptions C09_source_session_timestamp_window.
