(* C10 — no input from the network can crash the process; a misbehaving peer loses at most its own
   session.
   [run fixed e l]: the endpoint (one underlay with its session table) e handles the history l of network
   inputs; [fixed = true] is the tree with fixes/C10-cross-user-session-id.diff applied,
   [fixed = false] the pinned code. A Go panic is the distinct result [RunPanic site]. *)
From Coq Require Import NArith ZArith List Bool.
From M Require Import gen.Consts model.Dispatch proofs.DispatchReadProofs proofs.DispatchProofs.
Import ListNotations.
Open Scope N_scope.

(* every history of inputs (authenticated by any registered users with any field values, or not
   authenticated at all), either role, either transport, from every well-formed state: no panic *)
Theorem C10_no_panic : forall (e : endpoint) (l : list (env * wire)),
  wf e -> forall x, run true e l <> RunPanic x.
Proof. intros e l Hwf. apply run_ok; [exact Hwf | apply respects_fixed]. Qed.
Print Assumptions C10_no_panic.

(* non-vacuity: the empty UDP server is well formed, and the cross-user history runs to a live state *)
Example C10_no_panic_example : wf udp_server0 /\
  run true udp_server0 witness = RunLive (mkEndpoint Server UDP 0 [mkSession 7 false false true (Some 1) (Some 1) 1]).
Proof. split; [exact wf_udp_server0 | vm_compute; reflexivity]. Qed.

(* the pinned code: a UDP server dies when user 2 names a session of user 1 *)
Theorem C10_cross_user_refuted :
  exists e l, wf e /\ e_tr e = UDP /\ e_role e = Server /\ run false e l = RunPanic SiteUserDiffers.
Proof. exact cross_user_refuted. Qed.
Print Assumptions C10_cross_user_refuted.

(* the pinned code is safe on every history in which each input that names an existing session was
   authenticated by that session's owner, or the transport is TCP, or the endpoint is a client *)
Theorem C10_no_panic_partial : forall (e : endpoint) (l : list (env * wire)),
  wf e -> respects false e l -> forall x, run false e l <> RunPanic x.
Proof. exact no_panic_partial. Qed.
Print Assumptions C10_no_panic_partial.

(* non-vacuity: a history with two users that respects ownership *)
Example C10_no_panic_partial_example :
  respects false udp_server0
    [(env_all, wire_of 1 P_openReq 7); (env_all, wire_of 2 P_openReq 8); (env_all, wire_of 2 P_dataC2S 8); (env_all, wire_of 1 P_closeReq 7)].
Proof. apply respectsb_sound. vm_compute. reflexivity. Qed.

(* a segment authenticated by user u leaves every session owned by another user exactly as it was
   (server, both transports; on TCP the underlay itself may close, it has no session of another user) *)
Theorem misbehaviour_is_local : forall v e w e1 g u s,
  wf e -> is_client e = false -> read_one e w = RSeg e1 g -> g_block g = Some u ->
  find_session (s_id s) (e_sessions e) = Some s -> session_owner s <> u ->
  find_session (s_id s) (e_sessions (outcome_state e (step true v e w))) = Some s.
Proof.
  intros v e w e1 g u s Hwf Hcl Hr Hb Hf Hown. unfold step. rewrite Hr.
  destruct (read_one_ok e w e1 g Hwf Hr) as [Hwf1 [Hso [Hro [_ Hss]]]].
  apply (outcome_state_other (fun x => find_session (s_id s) (e_sessions x) = Some s) e1); [exact Hf|].
  rewrite <- Hss in Hf. apply (dispatch_local v e1 g u s Hwf1 Hso); try assumption.
  unfold is_client. rewrite Hro. exact Hcl.
Qed.
Print Assumptions misbehaviour_is_local.

(* what the fix prevents, as a fact about the pinned code: user 2, authenticated through its own session 8, sends
   a wrong-direction segment naming session 7 of user 1; Session.input returns an error and session 7 is closed *)
Example misbehaviour_not_local_unfixed :
  exists e', run false udp_server0
               [(env_all, wire_of 1 P_openReq 7); (env_all, wire_of 2 P_openReq 8); (env_all, wire_existing 8 P_dataS2C 7)] = RunLive e'
             /\ exists s, find_session 7 (e_sessions e') = Some s /\ s_closed s = true /\ session_owner s = 1.
Proof. eexists. split; [vm_compute; reflexivity|]. eexists. split; [vm_compute; reflexivity|]. split; reflexivity. Qed.

(* unauthenticated input: UDP ignores it, TCP closes only the connection it arrived on *)
Theorem unauthenticated_udp_ignored : forall fixed v e w,
  w_auth w = AuthNone -> is_tcp e = false -> step fixed v e w = Drop e.
Proof.
  intros fixed v e w Ha Ht. pose proof (unauthenticated_read e w Ha) as H. rewrite Ht in H.
  exact (step_of_read_skip fixed v e w H).
Qed.
Print Assumptions unauthenticated_udp_ignored.

Theorem unauthenticated_tcp_closes_underlay : forall fixed v e w, wf e ->
  w_auth w = AuthNone -> is_tcp e = true -> step fixed v e w = CloseUnderlay.
Proof.
  intros fixed v e w _ Ha Ht. pose proof (unauthenticated_read e w Ha) as H. rewrite Ht in H.
  destruct H as [err H]. exact (step_of_read_error fixed v e w err H).
Qed.
Print Assumptions unauthenticated_tcp_closes_underlay.

(* underlay_stream.go:216/219 — every error leaving readOneSegment is a top-level TypedError of a real type *)
Theorem read_one_error_typed : forall e w err, read_one e w = RErr err ->
  get_error_type (Some err) <> NO_ERROR /\ get_error_type (Some err) <> UNKNOWN_ERROR.
Proof. exact DispatchReadProofs.read_one_error_typed. Qed.
Print Assumptions read_one_error_typed.

(* ... and the realistic way to break it: one fmt.Errorf("%w") around a typed error is UNKNOWN_ERROR *)
Theorem wrapped_error_is_unknown : forall t e, get_error_type (Some (EWrapf (ETyped t e))) = UNKNOWN_ERROR.
Proof. reflexivity. Qed.
Print Assumptions wrapped_error_is_unknown.

(* segment.go:149-367 — only session/data segments with a sequence number reach segmentTree.Insert *)
Theorem insert_guard : forall e w e1 g, wf e -> read_one e w = RSeg e1 g ->
  (g_proto g =? P_openReq) || (g_proto g =? P_openResp) || is_data_proto (g_proto g) = true ->
  tree_insert_guard g = None.
Proof. exact DispatchProofs.insert_guard. Qed.
Print Assumptions insert_guard.

(* underlay_packet.go:488/575/636 — readOneSegment itself never panics *)
Theorem read_one_no_panic : forall e w, wf e -> forall x, read_one e w <> RPanic x.
Proof. intros e w _ x H. pose proof (read_one_yields e w) as Y. rewrite H in Y. exact Y. Qed.
Print Assumptions read_one_no_panic.

(* all sites, TCP and clients, even without the fix *)
Theorem no_site_reachable_tcp : forall fixed v e w x, wf e -> is_tcp e = true -> step fixed v e w <> Panic x.
Proof. intros fixed v e w x Hwf Ht. apply (step_ok fixed v e w Hwf). right; left; exact Ht. Qed.
Print Assumptions no_site_reachable_tcp.

Theorem no_site_reachable_client : forall fixed v e w x, wf e -> is_client e = true -> step fixed v e w <> Panic x.
Proof. intros fixed v e w x Hwf Hc. apply (step_ok fixed v e w Hwf). right; right; left; exact Hc. Qed.
Print Assumptions no_site_reachable_client.

(* well-formedness is an invariant (so the theorems apply after any history) *)
Theorem wf_preserved : forall fixed v e w, wf e -> step_cond fixed e w -> wf (outcome_state e (step fixed v e w)).
Proof. intros fixed v e w H C. exact (proj2 (step_ok fixed v e w H C)). Qed.
Print Assumptions wf_preserved.

(* SOCKS5 address / UDP header parsers: total functions that never consume more than the input *)
Theorem socks5_addr_bounded : forall l t host port used,
  parse_socks5_addr l = Some (t, host, port, used) -> (N.to_nat used <= length l)%nat.
Proof.
  intros l t host port used H. destruct (parse_socks5_addr_consumed l t host port used H) as [rest E].
  rewrite E. apply Nat.le_add_r.
Qed.
Print Assumptions socks5_addr_bounded.

Theorem socks5_udp_header_bounded : forall l hl, parse_socks5_udp l = Some hl -> (N.to_nat hl <= length l)%nat.
Proof.
  intros l hl H. destruct (parse_socks5_udp_consumed l hl H) as [rest E]. rewrite E. apply Nat.le_add_r.
Qed.
Print Assumptions socks5_udp_header_bounded.

(* why there is no window between session creation and the processing of its first segment: the session as the
   event loop stores it (nothing processed yet) already belongs to the opener and is invisible to every other user *)
Theorem owner_defined_at_creation : forall sid pol u rest g,
  pol <> 0 -> u <> pol -> g_sid g = sid -> g_block g = Some u ->
  session_owner (created_session sid pol) = pol /\
  lookup true (mkEndpoint Server UDP 0 (created_session sid pol :: rest)) g = None.
Proof. exact DispatchProofs.owner_defined_at_creation. Qed.
Print Assumptions owner_defined_at_creation.

(* every session in a server's table has a defined owner: the policy written at creation *)
Theorem owner_defined_in_table : forall e s, wf e -> is_client e = false -> In s (e_sessions e) ->
  session_owner s <> 0 /\ s_policy s = Some (session_owner s).
Proof. exact DispatchProofs.owner_defined_in_table. Qed.
Print Assumptions owner_defined_in_table.

(* the session goroutine never changes the owner the dispatch uses *)
Theorem owner_stable_under_input : forall v tr s g s' o, s_policy s = Some o -> o <> 0 -> input v tr s g = InOk s' ->
  session_owner s' = session_owner s.
Proof.
  intros v tr s g s' o Hp Ho H. rewrite (owner_of_policy s o Hp Ho).
  apply owner_of_policy; [exact (input_policy v tr s g s' o Hp H) | exact Ho].
Qed.
Print Assumptions owner_stable_under_input.

(* an owner taken from s.userName alone is undefined on the created session (the seeded variant) *)
Example username_only_undefined_at_creation : forall sid pol, owner_username_only (created_session sid pol) = 0.
Proof. reflexivity. Qed.

(* the syntactic tie of read_one_error_typed to the code: harness/cmd/dumpconsts/consts_c10_ast.go walks
   StreamUnderlay.readOneSegment and every package function whose error it hands on, and counts the
   `return ..., err` whose error is neither nil, nor a stderror.Wrap.../New... call, nor a variable assigned only
   from these (or from functions that pass the same check). Regenerated from /repo on every run: a new
   `return nil, err` with a plain error breaks this before any witness is found. *)
Theorem C10_consts_ok : C10_StreamReadUntypedReturns = 0%Z /\ (0 < C10_StreamReadErrorReturns)%Z.
Proof. split; reflexivity. Qed.
Print Assumptions C10_consts_ok.
