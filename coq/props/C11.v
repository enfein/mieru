(* C11 — with SOCKS5 credentials configured, nothing is proxied without them.
   [handle_auth false] / [serve false] model pkg/socks5/auth.go and socks5.go with
   fixes/C11-noauth-preferred-over-credentials.diff applied; [true] is the pinned tree's rule. *)
From Coq Require Import NArith List.
From M Require Import gen.Consts model.Socks5Auth proofs.Socks5AuthProofs.
Import ListNotations.
Open Scope N_scope.

(* with credentials configured (fixed rule) handleAuthentication returns nil ([out = Authenticated])
   only on a greeting offering method 2 followed by a version-1 sub-negotiation carrying a configured
   pair; it then wrote exactly 05 02, 01 00 and the request reader starts at [rest] *)
Theorem C11_auth_required : forall creds i,
  creds <> [] ->
  out (handle_auth false creds i) = Authenticated ->
  exists u p,
    In (u, p) creds /\ presents i u p (rest (handle_auth false creds i)) /\
    replies (handle_auth false creds i) = [[VER; M_USERPASS]; [SUBVER; ST_OK]].
Proof. exact auth_required. Qed.
Print Assumptions C11_auth_required.

(* the property on ServeConn, in the two placements in which this listener authenticates
   (UseProxy = ClientSideAuthentication): no dial and no request stage before a configured pair *)
Theorem C11_request_only_after_auth : forall use_proxy csa creds i,
  local_auth use_proxy csa = true -> creds <> [] ->
  let s := serve false use_proxy csa creds i in
  (s_dialed s = true -> use_proxy = true /\ s_next s <> None) /\
  (s_next s <> None ->
     exists u p r, In (u, p) creds /\ presents i u p r /\ s_next s = Some r /\
                   s_replies s = [[VER; M_USERPASS]; [SUBVER; ST_OK]] /\ s_dialed s = use_proxy).
Proof.
  intros use_proxy csa creds i Hl Hc. rewrite (serve_local _ _ _ _ _ Hl). cbv zeta.
  destruct (out (handle_auth false creds i)) eqn:Eo; cbn [s_dialed s_next s_replies].
  2, 3: split; [discriminate | intro H; contradiction H; reflexivity].
  destruct (auth_required _ _ Hc Eo) as (u & p & Hin & Hp & Er).
  split; [intro Hd; split; [exact Hd | discriminate]|].
  intros _. exists u, p, (rest (handle_auth false creds i)). auto.
Qed.
Print Assumptions C11_request_only_after_auth.

(* what must not change: a configured pair, properly presented, is accepted *)
Theorem C11_valid_pair_accepted : forall (creds : list cred) i u p r,
  In (u, p) creds -> presents i u p r ->
  handle_auth false creds i =
  {| replies := [[VER; M_USERPASS]; [SUBVER; ST_OK]]; out := Authenticated; rest := r |}.
Proof. exact valid_pair_accepted. Qed.
Print Assumptions C11_valid_pair_accepted.

(* no credentials configured, either rule: offering "no authentication" is what passes ... *)
Theorem C11_noauth_mode_accepts : forall legacy i,
  (forall methods r, greets i methods r -> In M_NOAUTH methods ->
     handle_auth legacy [] i = {| replies := [[VER; M_NOAUTH]]; out := Authenticated; rest := r |}) /\
  (out (handle_auth legacy [] i) = Authenticated ->
     exists methods, greets i methods (rest (handle_auth legacy [] i)) /\ In M_NOAUTH methods /\
                     replies (handle_auth legacy [] i) = [[VER; M_NOAUTH]]).
Proof. exact noauth_mode_accepts. Qed.
Print Assumptions C11_noauth_mode_accepts.

(* ... and username/password is never selected (05 02 is never written) *)
Theorem C11_noauth_mode_refuses_userpass : forall legacy i,
  ~ In [VER; M_USERPASS] (replies (handle_auth legacy [] i)) /\
  (forall methods r, greets i methods r -> ~ In M_NOAUTH methods ->
     out (handle_auth legacy [] i) = Rejected /\
     (In M_USERPASS methods -> replies (handle_auth legacy [] i) = [])).
Proof. exact noauth_mode_refuses_userpass. Qed.
Print Assumptions C11_noauth_mode_refuses_userpass.

(* every reply is one of the documented two-byte messages, in the documented order *)
Theorem C11_reply_well_formed : forall legacy creds i,
  In (replies (handle_auth legacy creds i)) documented_replies /\
  Forall (fun w => length w = 2%nat) (replies (handle_auth legacy creds i)).
Proof.
  intros legacy creds i.
  pose proof (handle_auth_replies_documented legacy creds i) as H.
  split; [exact H|]. revert H. apply Forall_forall. exact documented_two_bytes.
Qed.
Print Assumptions C11_reply_well_formed.

(* the numbers are those of RFC 1928 section 3 / RFC 1929 section 2 *)
Theorem C11_constants_rfc :
  VER = 5 /\ M_NOAUTH = 0 /\ M_USERPASS = 2 /\ M_NONE = 255 /\ SUBVER = 1 /\ ST_OK = 0 /\ ST_FAIL <> 0.
Proof. repeat split; try reflexivity. discriminate. Qed.
Print Assumptions C11_constants_rfc.

(* the pinned tree's rule refutes the property: with credentials configured, 05 02 00 02 alone
   ([req = []]) presents nothing, yet it is answered 05 00 and handleAuthentication returns nil;
   [forall req]: the proxy is dialled and the request stage runs on whatever follows *)
Theorem C11_legacy_refuted :
  exists creds i,
    creds <> [] /\
    (forall u p r, ~ presents i u p r) /\
    forall req,
      handle_auth true creds (i ++ req) = {| replies := [[VER; M_NOAUTH]]; out := Authenticated; rest := req |} /\
      serve true true true creds (i ++ req) = {| s_replies := [[VER; M_NOAUTH]]; s_dialed := true; s_next := Some req |}.
Proof. exact legacy_refuted. Qed.
Print Assumptions C11_legacy_refuted.

(* the fix changes behaviour only where credentials are configured and both methods are offered *)
Theorem C11_fix_is_minimal : forall creds i,
  handle_auth true creds i <> handle_auth false creds i ->
  creds <> [] /\ exists methods r, greets i methods r /\ In M_NOAUTH methods /\ In M_USERPASS methods.
Proof. exact fix_is_minimal. Qed.
Print Assumptions C11_fix_is_minimal.

(* UseProxy <> ClientSideAuthentication: authentication is the other end's job *)
Theorem C11_delegated_placements : forall legacy use_proxy csa creds i,
  local_auth use_proxy csa = false ->
  serve legacy use_proxy csa creds i = {| s_replies := []; s_dialed := use_proxy; s_next := Some i |}.
Proof. intros legacy use_proxy csa creds i Hl. unfold serve. rewrite Hl. reflexivity. Qed.
Print Assumptions C11_delegated_placements.

(* acceptance is membership of the PAIR: no encoding of (user, password) into one string is involved *)
Theorem C11_pair_membership_exact : forall (creds : list cred) i u p r,
  creds <> [] -> presents i u p r ->
  (out (handle_auth false creds i) = Authenticated <-> In (u, p) creds).
Proof. exact pair_membership_exact. Qed.
Print Assumptions C11_pair_membership_exact.

(* the case of interest: the same "user sep password" string split at another place.  The equation
   only describes that case and is not needed: of any two presented pairs the one that is not
   configured gets 01 01, nothing is dialled, the request is not read *)
Theorem C11_pair_boundary_matters : forall (creds : list cred) sep u p u' p' i i' r,
  In (u, p) creds -> ~ In (u', p') creds ->
  u ++ sep ++ p = u' ++ sep ++ p' ->
  presents i u p r -> presents i' u' p' r ->
  out (handle_auth false creds i) = Authenticated /\
  handle_auth false creds i' =
    {| replies := [[VER; M_USERPASS]; [SUBVER; ST_FAIL]]; out := Rejected; rest := r |} /\
  s_next (serve false true true creds i') = None /\ s_dialed (serve false true true creds i') = false.
Proof. exact pair_boundary_matters. Qed.
Print Assumptions C11_pair_boundary_matters.
