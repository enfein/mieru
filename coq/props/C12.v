(* C12 - loopback and private destinations are refused unless the user is allowed.
   model/Egress.v is /repo with fixes/C12-findaction-local-forms.diff and fixes/C12-udp-relay.diff; fx says
   whether fixes/C12-domain-literal.diff is in as well (true in the theorems about the decision, false in
   C12_domain_literal_refuted_before_fix, either in C12_relay_filter_exact).  lit, Go's reading of a domain
   string as an IP literal, is a parameter; the driver supplies the real one.
   Examples (proofs/EgressProofs.v): ex_reject_name and ex_reject_mapped_private state the hypotheses of
   C12_reject_local on concrete requests; the other ex_* are concrete outcomes. *)
From Coq Require Import List NArith ZArith.
From M Require Import model.Egress proofs.EgressProofs.
Import ListNotations.
Open Scope N_scope.

(* a CONNECT or UDP ASSOCIATE to LoopDest (a loopback IP in 4-byte, mapped or native form or written as a literal
   in a domain-typed address, the empty host, a well-known name in any letter case with or without the trailing
   dot, the unspecified address in CONNECT) from a user without AllowLoopbackIP, or to PrivDest (a private IP in
   those forms) from a user without AllowPrivateIP, is answered REJECT whatever the rule list says.  Unknown and
   unregistered users have neither permission; AllowLoopbackDestination lifts the refusal for LoopDest only. *)
Theorem C12_reject_local : forall lit, lit_sane lit -> forall cfg uname data idx cmd a,
  parse_request data = Some (cmd, a) -> is_conn_or_assoc cmd ->
  (LoopDest lit cmd a -> c_allow_loop_dest cfg = false -> user_loop cfg uname = false ->
     find_action true lit cfg true uname data idx = (ACT_REJECT, None)) /\
  (PrivDest lit a -> user_priv cfg uname = false ->
     find_action true lit cfg true uname data idx = (ACT_REJECT, None)).
Proof.
  intros lit Hs cfg uname data idx cmd a Hp Hc. rewrite (find_action_request lit _ _ _ _ _ _ _ Hp Hc). split.
  - intros HL Ha Hu. rewrite (reject_loop lit cfg uname cmd a Hs HL Ha Hu). reflexivity.
  - intros HP Hu. rewrite (reject_priv lit cfg uname cmd a HP Hu). reflexivity.
Qed.
Print Assumptions C12_reject_local.

(* over a whole association, in both relay modes (stop): no datagram goes to a destination the user may not
   reach; here the unspecified address counts as loopback without exception (LoopDestFull) *)
Theorem C12_relay_no_local : forall lit, lit_sane lit -> forall cfg uname stop pkts a,
  In a (relay_run true lit cfg uname stop pkts) ->
  (LoopDestFull lit a -> c_allow_loop_dest cfg = false -> user_loop cfg uname = true) /\
  (PrivDest lit a -> user_priv cfg uname = true).
Proof.
  intros lit Hs cfg uname stop pkts a Hin.
  apply relay_run_in, Exists_exists in Hin as (pkt & _ & Hsent).
  destruct (relay_step_sent _ _ _ _ _ _ _ Hsent) as (data & Hp & Hne).
  destruct (C12_reject_local lit Hs cfg uname data 0 CMD_CONNECT a Hp (or_introl eq_refl)) as [H1 H2].
  split.
  - intros HL Hc. destruct (user_loop cfg uname) eqn:Eu; [reflexivity|].
    contradiction Hne. rewrite (H1 HL Hc eq_refl). reflexivity.
  - intros HP. destruct (user_priv cfg uname) eqn:Eu; [reflexivity|].
    contradiction Hne. rewrite (H2 HP eq_refl). reflexivity.
Qed.
Print Assumptions C12_relay_no_local.

(* the text of the property also asks REJECT for a UDP ASSOCIATE *request* naming the unspecified address:
   false of the code, deliberately (RFC 1928 tells clients to send all zeros; nothing is ever sent there) *)
Theorem C12_assoc_unspecified_refuted :
  exists lit cfg uname data idx a,
    lit_sane lit /\
    parse_request data = Some (CMD_ASSOC, a) /\ UnspecIP (a_ip a) /\ a_fqdn a = [] /\
    c_allow_loop_dest cfg = false /\ user_loop cfg uname = false /\
    find_action true lit cfg true uname data idx = (ACT_DIRECT, None).
Proof.
  exists no_lit, empty_cfg, [], assoc_unspec_witness, 0, (mkAddr zero4 []).
  split; [exact no_lit_sane|]. repeat split; try reflexivity. constructor.
Qed.
Print Assumptions C12_assoc_unspecified_refuted.

(* before fixes/C12-domain-literal.diff (fx = false): CONNECT of the unknown user to the domain-typed
   literal "127.0.0.1" (in LoopDest), and to "localhost." (a LocalName), is answered DIRECT *)
Theorem C12_domain_literal_refuted_before_fix :
  (exists lit cfg uname data idx a,
     lit_sane lit /\ parse_request data = Some (CMD_CONNECT, a) /\ LoopDest lit CMD_CONNECT a /\
     c_allow_loop_dest cfg = false /\ user_loop cfg uname = false /\
     find_action false lit cfg true uname data idx = (ACT_DIRECT, None)) /\
  (exists lit cfg uname data idx a,
     lit_sane lit /\ parse_request data = Some (CMD_CONNECT, a) /\ a_ip a = [] /\ LocalName (a_fqdn a) /\
     c_allow_loop_dest cfg = false /\ user_loop cfg uname = false /\
     find_action false lit cfg true uname data idx = (ACT_DIRECT, None)).
Proof.
  split.
  - exists lit_127, empty_cfg, [], req_lit_127, 0, (mkAddr [] s_127_0_0_1).
    split; [exact lit_127_sane|]. repeat split; try reflexivity.
    apply (LoopDest_ip _ _ _ [127; 0; 0; 1]); [right; split; reflexivity | exact v4_127_0_0_1_loopback].
  - exists no_lit, empty_cfg, [], req_localhost_dot, 0, (mkAddr [] s_localhost_dot).
    split; [exact no_lit_sane|]. repeat split; try reflexivity.
    apply LocalName_mem. reflexivity.
Qed.
Print Assumptions C12_domain_literal_refuted_before_fix.

(* users granted the access, and all destinations outside the two classes, get exactly what the rule list
   says (wire bytes < 256) *)
Theorem C12_allowed_unaffected : forall lit, lit_bytes_ok lit -> forall cfg uname data idx cmd a,
  bytes_ok data -> parse_request data = Some (cmd, a) -> is_conn_or_assoc cmd ->
  (LoopDest lit cmd a -> user_loop cfg uname = true \/ c_allow_loop_dest cfg = true) ->
  (PrivDest lit a -> user_priv cfg uname = true) ->
  find_action true lit cfg true uname data idx = rules_action cfg a idx.
Proof.
  intros lit Hlb cfg uname data idx cmd a Hok Hp Hc HL HP. rewrite (find_action_request lit _ _ _ _ _ _ _ Hp Hc).
  rewrite (not_reject lit cfg uname cmd a (parse_request_wf data cmd a Hok Hp) Hlb HL HP). reflexivity.
Qed.
Print Assumptions C12_allowed_unaffected.

(* c: the whole address encoding of a datagram header.  The datagram is relayed exactly when FindAction on the
   CONNECT request to c (05 01 00 ++ c), for the user of the proxy connection, does not answer REJECT: both relay
   modes, with or without fixes/C12-domain-literal.diff, any payload *)
Theorem C12_relay_filter_exact : forall lit fx cfg uname stop c a,
  parse_addr c = Some (a, []) -> ~ (a_ip a = [] /\ a_fqdn a = []) ->
  forall payload, (3 < length (c ++ payload))%nat ->
  relay_step fx lit cfg uname stop ([0; 0; 0] ++ c ++ payload) =
  if fst (find_action fx lit cfg true uname (VER :: CMD_CONNECT :: 0 :: c) 0) =? ACT_REJECT then RDropped else RSent a.
Proof.
  intros lit fx cfg uname stop c a Hc Hh payload Hlen. cbn [app].
  rewrite relay_step_eq, (proj2 (Nat.ltb_lt _ _) Hlen). cbn [N.eqb andb].
  apply parse_addr_prefix in Hc as (c' & Ec & _ & Hm). rewrite app_nil_r in Ec. subst c'.
  rewrite (Hm payload), firstn_consumed.
  destruct (a_ip a); destruct (a_fqdn a); try reflexivity. contradiction Hh. auto.
Qed.
Print Assumptions C12_relay_filter_exact.

(* rules are applied in order, the first matching rule decides; no match means DIRECT *)
Theorem C12_first_match : forall cfg a idx,
  (forall rs1 r rs2, c_rules cfg = rs1 ++ r :: rs2 ->
     (forall r', In r' rs1 -> match_rule a r' = false) -> match_rule a r = true ->
     rules_action cfg a idx = rule_result cfg r idx) /\
  ((forall r, In r (c_rules cfg) -> match_rule a r = false) -> rules_action cfg a idx = (ACT_DIRECT, None)).
Proof.
  intros cfg a idx. rewrite rules_action_eq. split.
  - intros rs1 r rs2 Hr Hn Hm. rewrite Hr, (first_match_skip a rs1 _ Hn). cbn [first_match]. rewrite Hm. reflexivity.
  - intro Hn. rewrite (first_match_none a _ Hn). reflexivity.
Qed.
Print Assumptions C12_first_match.

(* the tree the constants were regenerated from contains fixes/C12-domain-literal.diff: the correspondence run
   executes the model with fx = true, the one the theorems above speak about *)
Theorem C12_tree_fixed : tree_fixed = true.
Proof. reflexivity. Qed.
Print Assumptions C12_tree_fixed.
