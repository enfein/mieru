(* C13 — acks never run ahead of receipt; retransmissions never change content; sequence numbers gapless.
   Same model as C02.  On the transition system ack safety and equal retransmissions are built into the rules
   (s_sendack, s_retx); what is checked on the traces of the real endpoints are the C13_trace_* theorems. *)
From Coq Require Import List NArith Lia.
From M Require Import model.UdpProto proofs.UdpProtoProofs.
Import ListNotations.
Open Scope nat_scope.

(* every datagram ever emitted carries unAckSeq <= the number g of in-order segments its emitter had received
   when it emitted it (g is recorded at emission), and g never exceeds what the emitter has now *)
Theorem C13_ack_safe : forall s u g, reach s -> In (u, g) (back s) -> u <= g /\ g <= length (got s).
Proof. exact ack_never_ahead. Qed.
Print Assumptions C13_ack_safe.

(* all transmissions of one sequence number carry the type, fragment marker and payload bound to it at assignment *)
Theorem C13_retx_same : forall s i c1 c2, reach s -> In (i, c1) (fwd s) -> In (i, c2) (fwd s) ->
  c1 = c2 /\ nth_error (assigned s) i = Some c1.
Proof. exact retx_same_content. Qed.
Print Assumptions C13_retx_same.

(* numbers on the wire are exactly [0, sent_hi); a first transmission carries sent_hi; a Write binds number
   length assigned; bindings never change *)
Theorem C13_seq_gapless : forall s, reach s ->
  (forall i c, In (i, c) (fwd s) -> i < sent_hi s) /\
  (forall i, i < sent_hi s -> exists c, In (i, c) (fwd s)) /\
  sent_hi s <= length (assigned s) /\
  (forall l s', lstep s l s' ->
     (forall i c, nth_error (assigned s) i = Some c -> nth_error (assigned s') i = Some c) /\
     (forall i, l = LSendNew i -> i = sent_hi s /\ sent_hi s' = S i) /\
     (forall c, l = LWrite c -> nth_error (assigned s') (length (assigned s)) = Some c /\
                                length (assigned s') = S (length (assigned s)))).
Proof. exact seq_gapless. Qed.
Print Assumptions C13_seq_gapless.

(* a segment leaves sendBuf only after the peer has it: the awaited segment is still held by the sender *)
Theorem C13_no_premature_discard : forall s, reach s ->
  una s <= next_recv s /\
  (next_recv s < length (assigned s) ->
     exists c, nth_error (assigned s) (next_recv s) = Some c /\ una s <= next_recv s < length (assigned s)).
Proof. exact no_premature_discard. Qed.
Print Assumptions C13_no_premature_discard.

Example C13_state_nonvacuous : reach ex_state /\ In (1, 1) (back ex_state) /\ In (0, cA) (fwd ex_state) /\ next_recv ex_state = 2.
Proof. split; [exact ex_state_reach | cbn; auto]. Qed.

(* In an accepted trace: every emitted datagram acknowledges only segment numbers
   all of which had been delivered to its emitter (ReadFrom returned a datagram carrying them) before ... *)
Theorem C13_trace_ack_safe : forall tr a, accept tr = inl a ->
  forall pre X g post, tr = pre ++ ES X g :: post ->
  forall i, (N.of_nat i < g_unack g)%N -> delivered X pre i.
Proof. exact accept_ack_safe. Qed.
Print Assumptions C13_trace_ack_safe.

(* ... all transmissions of a sequence number by an endpoint agree in type, fragment marker and payload ... *)
Theorem C13_trace_retx_same : forall tr a, accept tr = inl a ->
  forall X g1 g2, In g1 (emitted X tr) -> In g2 (emitted X tr) ->
  is_seq X (g_ty g1) = true -> is_seq X (g_ty g2) = true -> g_seq g1 = g_seq g2 ->
  g_ty g1 = g_ty g2 /\ g_frag g1 = g_frag g2 /\ g_pay g1 = g_pay g2.
Proof. exact accept_retx_same. Qed.
Print Assumptions C13_trace_retx_same.

(* ... a number is used only after all smaller numbers ... *)
Theorem C13_trace_gapless : forall tr a, accept tr = inl a ->
  forall pre X g post, tr = pre ++ ES X g :: post -> is_seq X (g_ty g) = true ->
  forall i, (N.of_nat i < g_seq g)%N -> emitted_seq X pre i.
Proof. exact accept_gapless. Qed.
Print Assumptions C13_trace_gapless.

(* ... and every receipt is of a datagram that had been emitted *)
Theorem C13_trace_recv_emitted : forall tr a, accept tr = inl a ->
  forall pre X k post, tr = pre ++ ER X k :: post -> N.to_nat k < length (emitted (negb X) pre).
Proof.
  intros tr a H pre X k post E. apply (accept_pev _ _ _ _ _ H E).
Qed.
Print Assumptions C13_trace_recv_emitted.

(* across Close and for control segments: in an accepted session  pre ++ post  (post = what is emitted once an
   application or mieru itself started closing) no sequence number has two contents among the emissions before
   Close and the CHECKED ones after it (l_chk, next theorem); a data fragment and a close request sharing a number
   are rejected *)
Theorem C13_trace_retx_same_across_close_partial : forall pre post l, late_final pre post = Some l ->
  forall X g1 g2, In g1 (emitted X pre ++ l_chk (getL X l)) -> In g2 (emitted X pre ++ l_chk (getL X l)) ->
  is_seq X (g_ty g1) = true -> is_seq X (g_ty g2) = true -> g_seq g1 = g_seq g2 ->
  g_ty g1 = g_ty g2 /\ g_frag g1 = g_frag g2 /\ g_pay g1 = g_pay g2.
Proof.
  intros pre post l H X g1 g2 H1 H2 Q1 Q2 E. destruct (late_final_inv _ _ _ H) as (a & Ea & HL).
  pose proof (snd_bound _ _ _ _ _ (ai_snd _ _ (accept_inv _ _ Ea) X)) as S3.
  assert (Hb : forall g, In g (emitted X pre ++ l_chk (getL X l)) -> is_seq X (g_ty g) = true ->
                         lookup (e_asg (getE X a)) (l_tab (getL X l)) (g_seq g) = Some (cont g)).
  { intros g Hg Hs. apply in_app_or in Hg. destruct Hg as [Hg | Hg].
    - apply lookup_asg. apply S3; assumption.
    - apply (li_tab _ _ _ _ _ (lv_end _ _ _ _ HL X)); assumption. }
  pose proof (Hb _ H1 Q1) as N1. pose proof (Hb _ H2 Q2) as N2. apply cont_inj. congruence.
Qed.
Print Assumptions C13_trace_retx_same_across_close_partial.

(* checked after Close: at least every sequenced emission that is not a closeSessionRequest; the exemption is for
   the stateless replies of the underlay for a session no longer registered, whose seq echoes the peer's unAckSeq *)
Theorem C13_trace_after_close_coverage : forall pre post l, late_final pre post = Some l ->
  forall X g, In g (emitted X post) -> is_seq X (g_ty g) = true -> g_ty g <> ty_close_req -> In g (l_chk (getL X l)).
Proof.
  intros pre post l H X. destruct (late_final_inv _ _ _ H) as (a & _ & HL).
  apply (li_cov _ _ _ _ _ (lv_end _ _ _ _ HL X)).
Qed.
Print Assumptions C13_trace_after_close_coverage.

(* over ALL emitted segments the sentence is refuted: an accepted session in which the client's number 1 carries a
   data segment before Close and such a stateless closeSessionRequest after it (underlay_packet.go, "Session is not
   registered").  Recorded finding stateless-close-reply-reuses-sequence-number; harmless: receivers handle close
   requests without looking at seq. *)
Theorem C13_seq_reuse_after_close_refuted : exists pre post g1 g2,
  accept_closed pre post = true /\ In g1 (emitted false (pre ++ post)) /\ In g2 (emitted false (pre ++ post)) /\
  is_seq false (g_ty g1) = true /\ is_seq false (g_ty g2) = true /\ g_seq g1 = g_seq g2 /\ g_ty g1 <> g_ty g2.
Proof.
  exists ex_pre,
         [ ES false (mkDg 4 2 0 0 0 []); ES false (mkDg 4 1 0 0 0 []) ],
         (mkDg 6 1 0 4096 0 [7]%N), (mkDg 4 1 0 0 0 []).
  vm_compute. repeat split; auto 10; discriminate.
Qed.
Print Assumptions C13_seq_reuse_after_close_refuted.

(* acks stay safe while closing: every datagram emitted after Close acknowledges only numbers all of which had been
   delivered to its emitter before (receipts before and after Close count) *)
Theorem C13_trace_ack_safe_after_close : forall pre post l, late_final pre post = Some l ->
  forall p1 X g p2, post = p1 ++ ES X g :: p2 -> forall i, (N.of_nat i < g_unack g)%N -> delivered X (pre ++ p1) i.
Proof.
  intros pre post l H p1 X g p2 E. destruct (late_final_inv _ _ _ H) as (a & _ & HL).
  apply (lv_pev _ _ _ _ HL _ _ _ E).
Qed.
Print Assumptions C13_trace_ack_safe_after_close.

(* numbering under partial Writes: writeChunk numbers fragment after fragment and may stop after k of n fragments (write
   deadline passed; the session stays usable).  Whatever Writes happened and wherever each stopped, the numbers queued
   are ns, ns+1, ... without a hole and the counter stands right behind the last one ... *)
Theorem C13_seq_gapless_with_partial_writes : forall ops ns, let '(ns', q) := write_all ns ops in
  ns' = ns + length q /\ map fst q = seq ns (length q).
Proof.
  induction ops as [|[cs k] t IH]; intros ns; cbn [write_all].
  - cbn. split; [lia | reflexivity].
  - pose proof (queue_frags_spec k cs ns) as H1. destruct (queue_frags ns cs k) as [ns1 q1]. destruct H1 as (A1 & B1 & _).
    specialize (IH ns1). destruct (write_all ns1 t) as [ns2 q2]. destruct IH as (A2 & B2).
    rewrite app_length, map_app, seq_app, B1, B2, A1. split; [lia | reflexivity].
Qed.
Print Assumptions C13_seq_gapless_with_partial_writes.

(* ... a partial Write is k Write steps of the transition system, so C13_seq_gapless covers every state it leads to ... *)
Theorem C13_partial_write_is_a_run : forall cs k s, reach s -> exists s',
  run s (map LWrite (firstn k cs)) s' /\ reach s' /\ assigned s' = assigned s ++ firstn k cs /\
  sent_hi s' = sent_hi s /\ fwd s' = fwd s /\ next_recv s' = next_recv s.
Proof.
  intros cs k. generalize (firstn k cs) as l. induction l as [|c l IH]; intros s HR.
  - exists s. rewrite app_nil_r. repeat split; auto. apply run_nil.
  - destruct (IH _ (reach_step _ _ _ HR (s_write s c))) as (s' & R & HR' & A & B & C & D).
    exists s'. cbn [map]. split; [econstructor; [apply s_write | exact R]|]. split; [exact HR'|]. proj.
    rewrite A, <- app_assoc. auto.
Qed.
Print Assumptions C13_partial_write_is_a_run.

(* ... and reserving the numbers of all fragments before the loop is refuted: a Write that stops early leaves a hole *)
Theorem C13_reserve_up_front_refuted : exists ops, let '(ns', q) := write_all_reserve 0 ops in
  map fst q <> seq 0 (length q) /\ ns' <> length q.
Proof.
  exists [([mkC 6 2 []; mkC 6 1 []; mkC 6 0 []], 1); ([mkC 6 0 []], 1)]. vm_compute. split; intros H; discriminate.
Qed.
Print Assumptions C13_reserve_up_front_refuted.

(* in the transition system every LWrite - the close session request is one - is numbered in the step that queues
   it, with a number no segment carries yet and that only it will carry.  LWrite is atomic in the model: a Close
   racing with a Write for nextSend is not expressible here *)
Theorem C13_control_numbering : forall s c s', reach s -> lstep s (LWrite c) s' ->
  nth_error (assigned s') (length (assigned s)) = Some c /\
  nth_error (assigned s) (length (assigned s)) = None /\
  (forall i c0, In (i, c0) (fwd s') -> i < length (assigned s)) /\
  (forall s2 c2, reach s2 -> nth_error (assigned s2) (length (assigned s)) = Some c ->
                 In (length (assigned s), c2) (fwd s2) -> c2 = c).
Proof.
  intros s c s' HR H. pose proof (inv_hi_len _ (reach_inv _ HR)) as I2. inversion H; subst. proj.
  split; [apply nth_app_last|]. split; [apply nth_error_None; lia|]. split.
  - intros i c0 Hin. apply (inv_fwd _ _ _ (reach_inv _ HR)) in Hin. lia.
  - intros s2 c2 HR2 Hn Hin. apply (inv_fwd _ _ _ (reach_inv _ HR2)) in Hin. destruct Hin as [Hin _].
    rewrite Hn in Hin. injection Hin as ->. reflexivity.
Qed.
Print Assumptions C13_control_numbering.

Example C13_closed_nonvacuous :
  accept_closed ex_pre [ES false (mkDg 6 1 0 4096 0 [7]%N); ES false (mkDg 4 2 0 0 0 []); ES true (mkDg 5 1 0 0 0 []); ES true (mkDg 4 2 0 0 0 [])] = true /\
  accept_closed ex_pre [ES false (mkDg 4 1 0 0 0 [])] = false /\
  accept_closed ex_pre [ES false (mkDg 6 2 0 4096 0 [8]%N); ES false (mkDg 4 2 0 0 0 [])] = false /\
  accept_closed ex_pre [ES false (mkDg 4 2 0 0 0 []); ES false (mkDg 4 1 0 0 0 [])] = true.
Proof. vm_compute. repeat split; reflexivity. Qed.

Example C13_trace_nonvacuous : accepts (ex_trace ++ [EF]) = true /\
  accept [ES false (mkDg 8 0 1 0 0 [])] = inr (0%N, rj_ack) /\
  accept [EW false [1;2]%N; ES false (mkDg 2 0 0 0 0 [1;2]%N); ES false (mkDg 2 0 0 0 0 [2]%N)] = inr (2%N, rj_retx) /\
  accept [EW false [1;2]%N; ES false (mkDg 2 0 0 0 0 []); ES false (mkDg 6 2 0 0 0 [1;2]%N)] = inr (2%N, rj_gap).
Proof. split; [exact ex_trace_accepted | destruct ex_rejects as (A & B & C & _); auto]. Qed.
