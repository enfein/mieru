(* C14 — no datagram exceeds the configured MTU; no payload exceeds its length field.
   The C14_source_* theorems state the same arithmetic over the functions translated from pkg/protocol.
   mtu_ok = the MTU range both config validators accept; mode_ok = OFF/32/40/48/56;
   transport_ok = stream or packet.  Padding draws are oracle inputs constrained only by the
   maxima the code computes (draws_ok). *)
From Coq Require Import ZArith List Lia.
From M Require Import gen.Consts model.Sizes proofs.SizesProofs proofs.SizesCrossProofs.
From M Require model.TcpStream model.Wire model.UdpProto.
From M Require Import gen.Translated proofs.TranslatedProtocolProofs.
Import ListNotations.
Open Scope Z_scope.

(* every datagram of a packet-transport session — any segment queued by any Write (first transmission or
   retransmission: same segment, fresh draws), open/close request/response, ack — is at most mtu bytes long *)
Theorem C14_mtu : forall mtu mode is_client first n cfg_mid cfg_end s p1 p2,
  mtu_ok mtu -> mode_ok mode -> 0 <= n ->
  emitted is_client first mtu C14_TransportPacket mode n s ->
  draws_ok mtu C14_TransportPacket cfg_mid cfg_end s p1 p2 ->
  dgram_len s p1 p2 <= mtu.
Proof.
  intros mtu mode is_client first n c1 c2 s p1 p2 Hmtu Hmode Hn He.
  apply fits_within_mtu. eapply emitted_fits; eassumption.
Qed.
Print Assumptions C14_mtu.

(* the hypothesis mtu_ok is needed: the piggybacked first write is not sized by the MTU *)
Theorem C14_mtu_needs_validated_range :
  exists mtu s, mtu = 1100 /\ emitted true true mtu C14_TransportPacket C14_ModeOff 1024 s /\
    draws_ok mtu C14_TransportPacket None None s 0 0 /\ dgram_len s 0 0 > mtu.
Proof.
  exists 1100, (mkSeg KOpenReq 0 1024 0 1024). split; [reflexivity|]. split; [left; vm_compute; auto|].
  split; vm_compute; intuition congruence.
Qed.
Print Assumptions C14_mtu_needs_validated_range.

(* length fields hold true lengths (no uint16/uint8 wrap), fragments <= maxPDU and <= the fragment size (which exists:
   maxFragmentSize does not err), session payload <= 1024 and only with low entropy off, Write queues no ack,
   paddings <= 255 *)
Theorem C14_fields : forall is_client first mtu t mode n s,
  mode_ok mode -> transport_ok t -> (t = C14_TransportPacket -> mtu_ok mtu) -> 0 <= n ->
  In s (fst (fst (write is_client first mtu t mode n))) ->
  0 <= s_plen s <= C14_MaxUint16 /\ 0 <= s_ext s <= C14_MaxUint16 /\
  0 <= s_body s <= C14_maxPDU /\
  (exists fs, max_fragment mtu t mode = Some fs /\ (is_session (s_kind s) = false -> 0 < s_body s <= fs)) /\
  (is_session (s_kind s) = true -> s_kind s = KOpenReq /\ s_body s <= C14_MaxSessionOpenPayload /\ s_plen s = s_body s /\
                                   (0 < s_body s -> mode = C14_ModeOff)) /\
  (s_kind s = KData -> mode = C14_ModeOff /\ s_plen s = s_body s) /\
  (s_kind s = KDataLE -> mode <> C14_ModeOff /\ s_ext s = s_body s /\ le_encoded_len (s_body s) mode = Some (s_plen s) /\ s_body s <= s_plen s) /\
  s_kind s <> KAck /\
  0 <= s_frag s <= C14_MaxUint8 /\
  (forall c1 c2 p1 p2, draws_ok mtu t c1 c2 s p1 p2 -> 0 <= p1 <= C14_MaxUint8 /\ 0 <= p2 <= C14_MaxUint8).
Proof.
  intros is_client first mtu t mode n s Hm Ht Hmtu Hn Hin.
  destruct (frag_facts_in_range mtu t mode Hm Ht Hmtu) as [fs F].
  destruct (write_spec is_client first mtu t mode fs n F Hn) as (segs & Hw & _ & Hall).
  rewrite Hw in Hin. rewrite Forall_forall in Hall. specialize (Hall s Hin).
  destruct (write_seg_ranges _ _ _ _ s F Hall) as [Hb H16 Hpdu He Hf _ _].
  pose proof (write_seg_by_kind mode fs s Hall) as K.
  split; [lia|]. split; [consts; lia|]. split; [lia|].
  split; [exists fs; split; [apply F|apply K]|]. split; [apply K|]. split; [apply K|].
  split; [intros E; destruct (bk_le _ _ _ K E) as (A & B & C); auto with zarith|].
  split; [intros E; destruct (bk_kind _ _ _ K) as [X|[X|X]]; rewrite E in X; discriminate X|].
  split; [exact Hf|]. intros c1 c2. apply draws_within_byte.
Qed.
Print Assumptions C14_fields.

(* one writeChunk: never fails, at most 256 fragments (fewer than the queue capacity), numbered n-1 .. 0, covering len *)
Theorem C14_fragment_numbers : forall mtu t mode len,
  mode_ok mode -> transport_ok t -> (t = C14_TransportPacket -> mtu_ok mtu) -> 0 < len <= C14_maxPDU ->
  exists segs, write_chunk mtu t mode len = (segs, Ok) /\
    map s_frag segs = countdown (length segs) /\ 1 <= Z.of_nat (length segs) <= C14_MaxUint8 + 1 /\
    Z.of_nat (length segs) < C14_segmentTreeCapacity /\ sum_body segs = len.
Proof.
  intros mtu t mode len Hm Ht Hmtu Hlen.
  destruct (frag_facts_in_range mtu t mode Hm Ht Hmtu) as [fs F].
  destruct (write_chunk_spec mtu t mode fs len F Hlen) as (segs & Hw & Hs & _ & Hfr & Hl & _).
  exists segs. repeat split; auto; consts; try lia. unfold C14_segmentTreeCapacity. lia.
Qed.
Print Assumptions C14_fragment_numbers.

(* Write never errs or divides by zero in range, reports n, and the bodies add up to n *)
Theorem C14_write_total : forall is_client first mtu t mode n,
  mode_ok mode -> transport_ok t -> (t = C14_TransportPacket -> mtu_ok mtu) -> 0 <= n ->
  exists segs, write is_client first mtu t mode n = (segs, n, Ok) /\ sum_body segs = n.
Proof.
  intros is_client first mtu t mode n Hm Ht Hmtu Hn.
  destruct (frag_facts_in_range mtu t mode Hm Ht Hmtu) as [fs F].
  destruct (write_spec is_client first mtu t mode fs n F Hn) as (segs & Hw & Hs & _). eauto.
Qed.
Print Assumptions C14_write_total.

(* the fragments of a write concatenate to exactly the written bytes; shapes are those of [write] *)
Theorem plan_concat : forall (A : Type) is_client first mtu t mode (b : list A),
  mode_ok mode -> transport_ok t -> (t = C14_TransportPacket -> mtu_ok mtu) ->
  exists segs, plan_write is_client first mtu t mode b = (segs, Z.of_nat (length b), Ok) /\
    concat (map snd segs) = b /\
    map fst segs = fst (fst (write is_client first mtu t mode (Z.of_nat (length b)))) /\
    lens_ok segs.
Proof. exact (@plan_write_concat). Qed.
Print Assumptions plan_concat.

(* the documented numeric limits on a stream: 32768-byte fragments, 32764 in MODE_32 (encoded 65528 <= 65535) *)
Theorem C14_stream_limits : forall mtu,
  max_fragment mtu C14_TransportStream C14_ModeOff = Some 32768 /\
  max_fragment mtu C14_TransportStream C14_Mode32 = Some 32764 /\
  max_fragment mtu C14_TransportStream C14_Mode40 = Some 32768 /\
  max_fragment mtu C14_TransportStream C14_Mode48 = Some 32768 /\
  max_fragment mtu C14_TransportStream C14_Mode56 = Some 32768 /\
  le_encoded_len 32764 C14_Mode32 = Some 65528 /\ le_encoded_len 32768 C14_Mode32 = None /\
  le_encoded_len 32768 C14_Mode40 = Some 52432 /\ le_encoded_len 32768 C14_Mode48 = Some 43696 /\
  le_encoded_len 32768 C14_Mode56 = Some 37456.
Proof. intros mtu. repeat split; reflexivity. Qed.
Print Assumptions C14_stream_limits.

(* whatever the configured maxima c1, c2: prefix and suffix padding drawn within maxPaddingSizeWithTrafficPattern (the
   second draw is told the first) stay within what the MTU leaves after the fragment and the overhead *)
Theorem C14_padding_budget : forall mtu frag c1 c2 p1 p2,
  0 <= p1 <= max_padding_tp mtu C14_TransportPacket frag 0 c1 ->
  0 <= p2 <= max_padding_tp mtu C14_TransportPacket frag p1 c2 ->
  p1 + p2 <= Z.max 0 (mtu - frag - C14_packetOverhead).
Proof. exact packet_padding_budget. Qed.
Print Assumptions C14_padding_budget.

(* the SOURCE of maxPaddingSize / maxFragmentSizeInternal (gen/Translated.v: translated from pkg/protocol by
   harness/cmd/go2coq on every run, semantics of base/MiniGo.v with Go's int wrapping at 2^63) equals the model's
   functions on int_small arguments (-2^61 < z < 2^61): a convenient common range in which nothing wraps, not the
   weakest one; MTUs are 1280..1500, sizes < 2^16 *)
Theorem C14_source_max_padding_eq_model : forall mtu t frag existing,
  int_small mtu -> int_small frag -> int_small existing ->
  xl_protocol_maxPaddingSize mtu t frag existing = max_padding mtu t frag existing.
Proof. exact xl_maxPaddingSize_eq_model. Qed.
Print Assumptions C14_source_max_padding_eq_model.

Theorem C14_source_max_fragment_eq_model : forall mtu t, int_small mtu ->
  xl_protocol_maxFragmentSizeInternal mtu t = max_fragment_internal mtu t.
Proof.
  intros mtu t Hm. apply xl_maxFragmentSizeInternal_eq_model. unfold C14_packetOverhead. ranges. lia.
Qed.
Print Assumptions C14_source_max_fragment_eq_model.

(* likewise maxFragmentSize, lowEntropyEncodedPayloadLen and the mode table buildLowEntropyParams: an error result of the
   source is [true] in the second component of the translation and [None] in the model (of_opt); lowEntropyEncodedPayloadLen
   divides by the table's value, so its translation is partial (None = run-time panic) and the theorem shows it never is *)
Theorem C14_source_max_fragment_size_eq_model : forall mtu t mode, int_small mtu ->
  xl_protocol_maxFragmentSize mtu t mode = of_opt (max_fragment mtu t mode).
Proof.
  intros mtu t mode Hm. apply xl_maxFragmentSize_eq_model. unfold C14_packetOverhead. ranges. lia.
Qed.
Print Assumptions C14_source_max_fragment_size_eq_model.

Theorem C14_source_le_encoded_len_eq_model : forall n mode, int_small n ->
  xl_protocol_lowEntropyEncodedPayloadLen n mode = Some (of_opt (le_encoded_len n mode)).
Proof.
  intros n mode Hn. apply xl_lowEntropyEncodedPayloadLen_eq_model. ranges. lia.
Qed.
Print Assumptions C14_source_le_encoded_len_eq_model.

Theorem C14_source_mode_table : forall mode,
  match src_bytes mode with
  | Some sb => exists w, xl_protocol_buildLowEntropyParams mode = ((sb, w), false)
  | None => xl_protocol_buildLowEntropyParams mode = ((0, 0), true)
  end.
Proof. exact xl_buildLowEntropyParams_eq_model. Qed.
Print Assumptions C14_source_mode_table.

(* C14_mtu with the padding maxima computed by the translated source (no traffic pattern: configured maxima only lower
   them), and each padding within its length byte *)
Theorem C14_source_mtu_bound : forall mtu mode is_client first n s p1 p2,
  mtu_ok mtu -> mode_ok mode -> 0 <= n ->
  emitted is_client first mtu C14_TransportPacket mode n s ->
  0 <= p1 <= (if is_session (s_kind s) then 0 else xl_protocol_maxPaddingSize mtu C14_TransportPacket (s_plen s) 0) ->
  0 <= p2 <= xl_protocol_maxPaddingSize mtu C14_TransportPacket (s_plen s) (if is_session (s_kind s) then 0 else p1) ->
  dgram_len s p1 p2 <= mtu /\ p1 <= C14_MaxUint8 /\ p2 <= C14_MaxUint8.
Proof.
  intros mtu mode is_client first n s p1 p2 Hmtu Hmode Hn He H1 H2.
  destruct (emitted_fits mtu mode is_client first n s Hmtu Hmode Hn He) as (Hfits & Hpl16).
  pose proof (xl_draws_ok mtu _ s p1 p2 Hmtu ltac:(destruct Hfits; lia) H1 H2) as D.
  split; [exact (fits_within_mtu _ _ _ _ _ _ Hfits D)|].
  destruct (draws_within_byte _ _ _ _ _ _ _ D). lia.
Qed.
Print Assumptions C14_source_mtu_bound.

(* the same as pure arithmetic over the two translated functions, no model function in the statement *)
Theorem C14_source_padding_budget : forall mtu frag p1 p2,
  mtu_ok mtu ->
  0 <= frag <= xl_protocol_maxFragmentSizeInternal mtu C14_TransportPacket ->
  0 <= p1 <= xl_protocol_maxPaddingSize mtu C14_TransportPacket frag 0 ->
  0 <= p2 <= xl_protocol_maxPaddingSize mtu C14_TransportPacket frag p1 ->
  C14_packetOverhead + frag + p1 + p2 <= mtu /\ p1 <= C14_MaxUint8 /\ p2 <= C14_MaxUint8.
Proof.
  intros mtu frag p1 p2 Hmtu Hf H1 H2. pose proof Hmtu as Hm. unfold mtu_ok in Hm.
  (* frag <= mtu - 88; then the draws are draws of a data segment whose length field is frag *)
  rewrite xl_maxFragmentSizeInternal_eq_model in Hf by (consts; ranges; lia).
  unfold max_fragment_internal, is_stream in Hf. consts. cbn [Z.eqb Pos.eqb] in Hf.
  destruct (xl_draws_ok mtu 2 (mkSeg KData 0 frag 0 0) p1 p2 Hmtu ltac:(cbn; consts; lia) H1 H2) as [D1 D2].
  pose proof (packet_padding_budget mtu frag None None p1 p2 D1 D2).
  destruct (draws_within_byte _ _ _ _ _ _ _ (conj D1 D2)). consts. lia.
Qed.
Print Assumptions C14_source_padding_budget.

(* what the model takes for granted about the constants regenerated from /repo *)
Theorem C14_consts_layout :
  C14_packetOverhead = C14_NonceSize + C14_MetadataLength + 2 * C14_TagOverhead /\
  C14_packetNonHeaderPosition = header_len /\
  C14_streamOverhead = C14_MetadataLength + 2 * C14_TagOverhead.
Proof. exact consts_layout. Qed.
Print Assumptions C14_consts_layout.

Theorem C14_consts_mtu_range :
  C14_ServerMinMTU = C14_ClientMinMTU /\ C14_ServerMaxMTU = C14_ClientMaxMTU /\
  C14_ServerMTURangeContiguous = 1 /\ C14_ClientMTURangeContiguous = 1 /\
  C14_ServerMinMTU <= C14_DefaultMTU <= C14_ServerMaxMTU /\
  C14_packetOverhead + C14_MaxSessionOpenPayload <= C14_ServerMinMTU.
Proof. exact consts_mtu_range. Qed.
Print Assumptions C14_consts_mtu_range.

Theorem C14_consts_modes :
  C14_ExtraLEModes = 0 /\ C14_MaxConfiguredMiddlePadding <= C14_MaxUint8 /\ C14_MaxConfiguredEndPadding <= C14_MaxUint8 /\
  C14_StreamPaddingCap <= C14_MaxUint8 /\ C14_PacketPaddingCap <= C14_MaxUint8.
Proof. exact consts_modes. Qed.
Print Assumptions C14_consts_modes.

(* C01: on the stream transport the plan of Sizes.v and TcpStream.plan_event (one Write from any writer state)
   queue the same segments in the same order — protocol number, fragment number, payload bytes — for client and
   server, first and later writes, every mode OFF/32/40/48/56 and every byte string (also the empty one) *)
Theorem C14_plan_agrees_with_tcpstream : forall (client : bool) (st : TcpStream.wst) (modeN : N) (b : list N) mtu,
  (modeN <= 4)%N ->
  map (proj14 client)
      (fst (fst (plan_write client (negb (TcpStream.w_opened st)) mtu C14_TransportStream (Z.of_N modeN) b))) =
  map proj01 (fst (TcpStream.plan_event client st (TcpStream.WWrite modeN b))).
Proof. exact plan_agrees_with_tcpstream. Qed.
Print Assumptions C14_plan_agrees_with_tcpstream.

(* C09: dgram_len is the length of Wire.udp_datagram (the layout of C09_udp_datagram_length) for every segment
   kind, when the paddings and the wire payload have the lengths the segment says *)
Theorem C14_dgram_len_agrees_with_wire : forall (seal : list N -> list N -> list N -> list N),
  (forall k n p, length (seal k n p) = (length p + N.to_nat Wire.TagOverhead)%nat) ->
  forall key nonce meta pad1 payload pad2 (s : seg) p1 p2,
  N.of_nat (length nonce) = Wire.NonceSize -> N.of_nat (length meta) = Wire.MetadataLength ->
  Z.of_nat (length pad1) = (if is_session (s_kind s) then 0 else p1) ->
  Z.of_nat (length pad2) = p2 ->
  Z.of_nat (length payload) =
    (if s_body s >? 0 then match s_kind s with KDataLE => s_plen s | _ => s_body s end else 0) ->
  (s_kind s = KDataLE -> 0 < s_body s -> 0 < s_plen s) ->
  Z.of_nat (length (Wire.udp_datagram seal key nonce meta pad1 payload pad2 (fun x => x))) = dgram_len s p1 p2.
Proof. exact dgram_len_agrees_with_wire. Qed.
Print Assumptions C14_dgram_len_agrees_with_wire.

(* C02/C13: whatever endpoint X (false = client, true = server) of UdpProto may emit is within the MTU:
   (a) every content a Write hands to the sender is a sequenced type of X, carries s_body bytes and every
       datagram made of it (first transmission or retransmission, any padding draw within the maxima) is <= mtu;
   (b) every sequenced or ack type of X is one of the seven kinds of Sizes.v, and the payload-free segment of every
       non-data kind (open/close request/response, pure ack) is <= mtu *)
Theorem C14_every_segment_kind_within_mtu : forall mtu mode (X first : bool) (b : list N) cfg_mid cfg_end,
  mtu_ok mtu -> mode_ok mode ->
  (forall s p, In (s, p) (fst (fst (plan_write (negb X) first mtu C14_TransportPacket mode b))) ->
     let c := UdpProto.mkC (Z.to_N (proto_of (negb X) (s_kind s))) (Z.to_N (s_frag s)) p in
     UdpProto.is_seq X (UdpProto.c_ty c) = true /\ Z.of_nat (length (UdpProto.c_pay c)) = s_body s /\
     forall p1 p2, draws_ok mtu C14_TransportPacket cfg_mid cfg_end s p1 p2 -> dgram_len s p1 p2 <= mtu) /\
  (forall ty, UdpProto.is_seq X ty = true \/ UdpProto.is_ack X ty = true ->
     exists k, ty = Z.to_N (proto_of (negb X) k) /\
       (k <> KData -> k <> KDataLE ->
        forall p1 p2, draws_ok mtu C14_TransportPacket cfg_mid cfg_end (control_seg k) p1 p2 ->
                      dgram_len (control_seg k) p1 p2 <= mtu)).
Proof. exact every_segment_kind_within_mtu. Qed.
Print Assumptions C14_every_segment_kind_within_mtu.
