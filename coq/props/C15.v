(* C15: Close completes, unblocks everyone, leaves nothing running; deadlines bound calls. *)
From Coq Require Import ZArith List Bool.
From Coq Require Import Lia.
From M Require Import gen.Consts model.Deadline model.Lifecycle proofs.LifecycleProofs.
Import ListNotations.

Theorem C15_consts_ok : ((C15_closeWaitIterations = 1000 /\ C15_closeWaitSleep_ns = 1000000 /\ C15_serverRespTimeout_ns = 10000000000
   /\ 60000000000 <= C15_readOneSegmentTimeout_ns <= 120000000000 /\ C15_idleSessionTimeout_ns = 60000000000
   /\ C15_sessionCleanInterval_ns = 5000000000 /\ C15_backPressureDelay_ns = 100000)%Z)%Z.
Proof. vm_compute. intuition congruence. Qed.
Print Assumptions C15_consts_ok.

(* close(closedChan) runs at most once in any interleaving (a second one would panic); a later Close is a no-op *)
Theorem close_idempotent : (forall s, reachable s ->
  nclosed s <= 1 /\ (closedChan s = true -> nclosed s = 1) /\ active (pC1 s) + active (pC2 s) <= 1
  /\ (forall one : bool, closeRequested s = true -> (if one then pC1 s else pC2 s) = CIdle -> call_close one s = Some (setC one s CRet)))%nat.
Proof.
  intros s R. pose proof (reachable_inv s R) as I. pose proof (one_active s I) as A.
  rewrite (inv_nclosed s I). repeat apply conj.
  - destruct (closedChan s); cbn; lia.
  - intros ->. reflexivity.
  - lia.
  - exact (fun one => later_close_noop one s).
Qed.
Print Assumptions close_idempotent.

(* in every interleaving, once closed, a waiting Read returns at its first own step and stays returned until taken.  The
   model's TR takes the first ready exit (DATA or EOF: unblock_reader_run); Go's select picks at random among the ready
   cases, hence the four classes *)
Theorem C15_unblock : (forall ls s s' a,
  closedChan s = true -> pR s = RWait a -> no_retake ls -> run s ls = Some s' ->
  (In TR ls -> exists c, pR s' = RRet c /\ (c = DATA \/ c = EOF \/ c = UEOF \/ c = TIMEOUT))
  /\ (~ In TR ls -> pR s' = RWait a /\ exists s'', step TR s' = Some s''))%nat.
Proof.
  intros ls s s' a C P N H. destruct (unblock_reader_run ls s s' a C P N H) as [A B]. split; [|exact B].
  intros X. destruct (A X) as (c & Pc & [->| ->]); eauto.
Qed.
Print Assumptions C15_unblock.

(* once closedChan is closed every wait point of Read, writeChunk, the session loops and deliverSegmentToSession has an
   enabled exit; the writer at the lock and the loop in conn.Write only when the lock is free / the network lets it return *)
Theorem C15_unblock_waitpoints : (forall s, inv s -> closedChan s = true ->
  (forall a, pR s = RWait a -> exists s' c, step TR s = Some s' /\ pR s' = RRet c /\ (c = DATA \/ c = EOF))
  /\ (forall a, pW s = WSpace a -> exists s', step TW s = Some s' /\ pW s' = WRet EOF)
  /\ (forall a, pW s = WOLock a -> olock_free s = true -> exists s', step TW s = Some s' /\ pW s' = WRet EOF)
  /\ (pW s = WMove -> exists s', step TW s = Some s' /\ pW s' = WRet OK)
  /\ (pI s = LRun -> exists s', step TI s = Some s' /\ pI s' = LExited)
  /\ (pI s = LRecvSpace -> exists s', step TI s = Some s' /\ pI s' = LRun)
  /\ (pO s = LRun -> exists s', step TO s = Some s' /\ pO s' = LExited)
  /\ (pO s = LConnWrite -> net_ok s = true -> exists s', step TO s = Some s' /\ (pO s' = LRun \/ pO s' = LErr (keepLock s) CIdle))
  /\ (pE s = EDeliver -> exists s', step TE s = Some s' /\ pE s' = ERun))%nat.
Proof.
  intros s I C. destruct (inv_queue s I C) as [M F]. split; [exact (fun a => unblock_reader s a C)|].
  cbn [step]. unfold wspace_exits. repeat apply conj.
  - intros a P. rewrite P, C. eexists; split; reflexivity.
  - intros a P L. rewrite P, L, C. eexists; split; reflexivity.
  - intros P. rewrite P, M. eexists; split; reflexivity.
  - intros P. rewrite P, C. eexists; split; reflexivity.
  - intros P. rewrite P, C. eexists; split; reflexivity.
  - intros P. rewrite P, C. eexists; split; reflexivity.
  - intros P N. rewrite P. unfold net_ok in N.
    destruct (connDL s || netBroken s) eqn:D; [eexists; split; [reflexivity|right; reflexivity]|].
    apply orb_false_elim in D. destruct D as [D1 D2]. rewrite D1, D2, !orb_false_r in N. rewrite N.
    eexists; split; [reflexivity|left; reflexivity].
  - intros P. rewrite P, C, orb_true_r. eexists; split; reflexivity.
Qed.
Print Assumptions C15_unblock_waitpoints.

Theorem C15_invariant_every_interleaving : (forall s, reachable s -> inv s)%nat.
Proof. exact reachable_inv. Qed.
Print Assumptions C15_invariant_every_interleaving.

Theorem C15_closed_is_stable : (forall l s s', step l s = Some s' ->
  (closedChan s = true -> closedChan s' = true) /\ (closeRequested s = true -> closeRequested s' = true)
  /\ (connDL s = true -> connDL s' = true) /\ (udone s = true -> udone s' = true))%nat.
Proof. intros l s s' H. exact (fr_monotone (step_frame l s s' H)). Qed.
Print Assumptions C15_closed_is_stable.

(* Close as a measure: at most grace_iters + 4 own steps are left when it starts, every own step lowers it.  Partial: an
   own step is enabled except at the lock with the lock taken and in conn.Write with the network stalled, and then there
   is no bound (C15_session_close_blocks_refuted); the code's first s.oLock.Lock() (session.go:1310, before the polls)
   is not a wait point of the model *)
Theorem C15_close_bounded_partial : ((forall (one : bool) s s', call_close one s = Some s' -> mC (if one then pC1 s' else pC2 s') <= grace_iters + 4)
  /\ (forall one s s', step_closer one s = Some s' -> mC (if one then pC1 s' else pC2 s') < mC (if one then pC1 s else pC2 s))
  /\ (forall (one : bool) s, active (if one then pC1 s else pC2 s) = 1 ->
        olock_free s = true \/ (if one then pC1 s else pC2 s) <> COLock ->
        net_ok s = true \/ (if one then pC1 s else pC2 s) <> COutput -> exists s', step_closer one s = Some s')
  /\ grace_iters = 1000)%nat.
Proof. exact (conj closer_start_bound (conj closer_step_decreases (conj closer_enabled eq_refl))). Qed.
Print Assumptions C15_close_bounded_partial.

(* the session Close of the application can be stuck for good: output loop inside a stalled conn.Write holds the
   lock, the 1000 polls run out, Close waits for the lock; no thread of this end can move *)
Theorem C15_session_close_blocks_refuted : (exists s, run (init true true) stall_trace = Some s
    /\ pC1 s = COLock /\ pO s = LConnWrite /\ closedChan s = false
    /\ step TC1 s = None /\ step TO s = None /\ step TC2 s = None /\ step TR s = None /\ step TW s = None)%nat.
Proof. vm_compute. eexists. repeat split; reflexivity. Qed.
Print Assumptions C15_session_close_blocks_refuted.

(* the underlay / mux Close sets the connection deadline first: from then on the stalled write returns, the lock
   is released and the closing sequence completes *)
Theorem C15_underlay_close_releases : (forall s, run (init true true) stall_trace = Some s ->
  exists s', run s [ACallUnderlayClose; TO; TO; TO; TC1; TC1; TC1; TO; TI; TU; TU; TU; TU] = Some s'
    /\ closedChan s' = true /\ pC1 s' = CRet /\ pO s' = LExited /\ pI s' = LExited /\ pU s' = URet /\ udone s' = true /\ nclosed s' = 1)%nat.
Proof. exact underlay_close_releases. Qed.
Print Assumptions C15_underlay_close_releases.

(* fixed code: once the underlay Close has returned (released), the event loop's measure mEv <= 6 falls with each of its
   own steps and no other step raises it: the loop never waits for its read timeout, a Mux.Close that waits for its
   event loops is bounded *)
Theorem C15_underlay_close_releases_event_loop : ((forall s s', invK s -> fixedLoop s = true -> pU s = USecondDL -> step TU s = Some s' -> released s')
  /\ (forall l s s', released s -> step l s = Some s' -> released s')
  /\ (forall s, released s -> pE s <> EExited -> exists s', step TE s = Some s' /\ mEv s' < mEv s)
  /\ (forall l s s', released s -> step l s = Some s' -> l <> TE -> mEv s' <= mEv s)
  /\ (forall s, mEv s <= 6) /\ (forall s, mEv s = 0 -> pE s = EExited)
  /\ (forall c a ls s, run (init c a) ls = Some s -> invK s /\ fixedLoop s = true))%nat.
Proof.
  repeat apply conj.
  - exact released_established.
  - exact released_step.
  - exact released_progress.
  - exact released_others_do_not_delay.
  - exact (fun s => proj1 (mEv_range s)).
  - exact (fun s => proj2 (mEv_range s)).
  - intros c a ls s H. assert (R : reachable s) by (exists c, a, ls; exact H).
    exact (conj (reachable_invK s R) (proj2 (reachable_variant s R))).
Qed.
Print Assumptions C15_underlay_close_releases_event_loop.

(* BEFORE the fix (variant fixedLoop = false): the event loop, woken by the first SetDeadline(now), finds done still
   open, re-arms its long read timeout (which replaces the past deadline) and blocks in the read; the underlay Close
   then finishes - and the loop stays in the read until the timeout fires or a segment arrives: a Mux.Close that waits
   for its event loops waits that long *)
Theorem C15_event_loop_rearms_refuted_before_fix : (exists s, run (init_vv false false true true) rearm_trace = Some s
    /\ pU s = URet /\ udone s = true /\ pE s = ERead /\ readDL s = false /\ step TE s = None)%nat.
Proof. vm_compute. eexists. repeat split; reflexivity. Qed.
Print Assumptions C15_event_loop_rearms_refuted_before_fix.

(* the same schedule on the fixed code: the second SetDeadline(now) comes after close(done) and wakes the read *)
Theorem C15_event_loop_rearm_schedule_on_fixed_code : (exists s, run (init true true) (rearm_trace ++ [TU; TE; TE]) = Some s /\ pU s = URet /\ pE s = EExited)%nat.
Proof. vm_compute. eexists. repeat split; reflexivity. Qed.
Print Assumptions C15_event_loop_rearm_schedule_on_fixed_code.

(* On a connection whose I/O fails, once closeRequested is set some thread of the closing sequence can take a step that
   lowers closing_measure, in every state of the code's lock discipline: the output loop that met the write error never
   waits for a lock it holds itself.  Deadlock-freedom, not termination (see closing_measure). *)
Theorem C15_output_error_close_no_self_deadlock : (forall s,
  inv s -> keepLock s = false -> (connDL s = true \/ netBroken s = true) ->
  closeRequested s = true -> closedChan s = false ->
  exists l s', In l [TC1; TC2; TO] /\ step l s = Some s' /\ closing_measure s' < closing_measure s)%nat.
Proof.
  intros s I K N CR CC.
  (* exactly one closer is active: C1, C2, or the output loop with its own closeWithError *)
  pose proof (inv_one_closer s I) as A. rewrite CR, CC in A. cbn in A.
  destruct (active (pC1 s)) as [|[|?]] eqn:A1; [|exact (closer_progress true s I K N A1)|lia].
  destruct (active (pC2 s)) as [|[|?]] eqn:A2; [|exact (closer_progress false s I K N A2)|lia].
  destruct (pO s) as [| | | |h c] eqn:PO; try discriminate A. exact (loop_close_progress s h c I K N PO).
Qed.
Print Assumptions C15_output_error_close_no_self_deadlock.

(* the output loop on its write-error path is never stuck: 7 own steps from LErr _ CIdle back to LRun (n + 1 more from
   CGrace n, which the error close never enters but inv does not exclude) *)
Theorem C15_output_loop_error_path_not_stuck : (forall s h c,
  inv s -> keepLock s = false -> (connDL s = true \/ netBroken s = true) -> pO s = LErr h c ->
  h = false /\ exists s', step TO s = Some s' /\ mO (pO s') < mO (pO s) /\ mO (pO s) <= 7 + (match c with CGrace n => n + 1 | _ => 0 end))%nat.
Proof. exact output_loop_error_path_not_stuck. Qed.
Print Assumptions C15_output_loop_error_path_not_stuck.

(* the variant that keeps oLock across closeWithError(err) (defer Unlock): the first write error on a session that
   nobody closed yet dead-locks the output loop against itself; closeRequested is set, closedChan never closes: a
   waiting Read has no exit, a later Close is a no-op, the underlay Close waits for the session loops for ever *)
Theorem C15_output_error_close_keep_lock_refuted : (exists s, run (init_v true true true) self_deadlock_trace = Some s
    /\ pO s = LErr true COLock /\ closeRequested s = true /\ closedChan s = false /\ outputErr s = true
    /\ pR s = RWait false /\ pC1 s = CRet /\ pU s = UWg
    /\ step TO s = None /\ step TC1 s = None /\ step TC2 s = None /\ step TR s = None /\ step TU s = None /\ step TI s <> None)%nat.
Proof. vm_compute. eexists. repeat split; try reflexivity. discriminate. Qed.
Print Assumptions C15_output_error_close_keep_lock_refuted.

(* the same trace under the code's discipline (lock released first) ends with everything closed and returned *)
Theorem C15_output_error_close_code_completes : (exists s, run (init true true) (self_deadlock_trace ++ [TO; TO; TO; TO; TO; TI; TR; TU; TU]) = Some s
    /\ closedChan s = true /\ nclosed s = 1 /\ pO s = LExited /\ pI s = LExited /\ pR s = RRet EOF /\ pU s = URet /\ udone s = true)%nat.
Proof. exact output_error_close_code_completes. Qed.
Print Assumptions C15_output_error_close_code_completes.

(* reachable fixes the variant to the code's (lock released before closeWithError): the side condition keepLock s = false
   of C15_output_error_close_no_self_deadlock and C15_output_loop_error_path_not_stuck *)
Theorem C15_lock_discipline_of_the_code : (forall s, reachable s -> keepLock s = false)%nat.
Proof. exact (fun s R => proj1 (reachable_variant s R)). Qed.
Print Assumptions C15_lock_discipline_of_the_code.

(* a read deadline does not persist: the deferred readDeadline.Store(0) of Read clears it on every return *)
Theorem C15_deadline_refuted : (forall cl, ~ persists_read cl).
Proof.
  intros cl H. destruct (H 0 200000 [ORead never never never; ORead never never never])%Z as [_ R]; [lia|lia|reflexivity|].
  (* this is the run of the witness after its SetReadDeadline *)
  pose proof (read_deadline_witness cl) as W.
  change (Deadline.run _ (_ :: ?l)) with (Deadline.run (mkSt 0 (mkD 200000 0) cl) l) in W.
  rewrite W in R. discriminate R.
Qed.
Print Assumptions C15_deadline_refuted.

Theorem C15_deadline_witness : (forall cl,
  Deadline.run (mkSt 0 (mkD 0 0) cl) [OSet WhR 200000; ORead never never never; ORead never never never]
  = [(TIMEOUT, Some 200000); (BLOCKED, None)])%Z.
Proof. exact read_deadline_witness. Qed.
Print Assumptions C15_deadline_witness.

(* partial: only the first Read after the deadline was stored is bound by it (times in us) *)
Theorem C15_deadline_single_call_partial : (forall now eff data closed err,
  eff <> 0 -> exists c t, read_outcome now eff data closed err = (c, Some t) /\ t <= Z.max now eff /\ now <= t)%Z.
Proof.
  intros now eff data closed err Hne. pose proof (read_outcome_time now eff data closed err) as E.
  destruct (first_exit_by_deadline now eff data closed err Hne) as (m & Em & L). rewrite Em in E.
  destruct (read_outcome now eff data closed err) as [c t]. cbn in E. subst t. exists c, m. tauto.
Qed.
Print Assumptions C15_deadline_single_call_partial.

Theorem C15_write_deadline_refuted : (forall cl, ~ persists_write cl).
Proof. exact write_deadline_refuted. Qed.
Print Assumptions C15_write_deadline_refuted.

(* partial: only the first Write after the deadline was stored, and only with the output side live (lock free and queue
   moving at once); otherwise C15_write_deadline_ignored_when_stalled *)
Theorem C15_write_deadline_single_call_partial : (forall now eff space closed oerr,
  eff <> 0 -> exists c t, write_outcome now eff false space (Some now) (Some now) closed oerr = (c, Some t) /\ t <= Z.max now eff)%Z.
Proof.
  intros now eff space closed oerr Hne.
  destruct (write_single_call now eff space now now closed oerr Hne) as (c & t & E & L). exists c, t. split; [exact E|lia].
Qed.
Print Assumptions C15_write_deadline_single_call_partial.

(* a Write whose queue has room but whose output side does not move (oLock held in conn.Write, or the queue does not
   drain) blocks whatever its deadline, unless the timer or outputErr had fired by the time it got the lock *)
Theorem C15_write_deadline_ignored_when_stalled : (forall now eff closed oerr,
  write_outcome now eff false (Some now) None (Some now) closed oerr = (BLOCKED, None)
  /\ write_outcome now eff false (Some now) (Some now) None None oerr =
     (if (match dl_exit now eff with Some x => x <=? now | None => false end) then write_outcome now eff false (Some now) (Some now) None None oerr
      else if (match at_or_after now oerr with Some x => x <=? now | None => false end) then write_outcome now eff false (Some now) (Some now) None None oerr
      else (BLOCKED, None)))%Z.
Proof. exact write_deadline_ignored_when_stalled. Qed.
Print Assumptions C15_write_deadline_ignored_when_stalled.

(* the client's own arming: a completed client Write replaces whatever read deadline the user had set
   (10000000 us = C15_serverRespTimeout_ns / 1000) *)
Theorem C15_client_write_overwrites_read_deadline : (forall t s,
  rd (write_return true false OK t s) = t + 10000000 /\ wd (write_return true false OK t s) = 0)%Z.
Proof. exact client_write_overwrites_read_deadline. Qed.
Print Assumptions C15_client_write_overwrites_read_deadline.

(* the user's 300 ms read deadline is gone: the Read times out 10 s after the client's Write completed *)
Theorem C15_client_write_witness : (Deadline.run (mkSt 0 (mkD 0 0) true) [OSet WhR 300000; OWrite false (Some 0) (Some 0) (Some 50000) never never; ORead never never never]
  = [(OK, Some 50000); (TIMEOUT, Some 10050000)])%Z.
Proof. exact client_write_witness. Qed.
Print Assumptions C15_client_write_witness.

Theorem C15_read_after_closed_returns : (forall s, closedChan s = true -> pR s = RIdle ->
  exists s1, step ACallRead s = Some s1 /\
    ((exists c, pR s1 = RRet c) \/ exists a s2 c, pR s1 = RWait a /\ step TR s1 = Some s2 /\ pR s2 = RRet c))%nat.
Proof.
  intros s H P. destruct (recvNonEmpty s) eqn:D.
  - cbn [step]. rewrite P, D. eexists; split; [reflexivity|]. left. eexists. reflexivity.
  - destruct (call_read_waits s P D) as (s1 & E1 & P1 & C1). rewrite H in C1.
    destruct (unblock_reader s1 _ C1 P1) as (s2 & c & E2 & Pc & _). exists s1. split; [exact E1|]. right. exists (rdSet s), s2, c. auto.
Qed.
Print Assumptions C15_read_after_closed_returns.

Theorem C15_write_after_close_requested_returns : (forall s, closeRequested s = true -> pW s = WIdle ->
  exists s', step ACallWrite s = Some s' /\ pW s' = WRet CLOSED)%nat.
Proof. intros s H P. cbn [step]. rewrite P, H. eexists; split; reflexivity. Qed.
Print Assumptions C15_write_after_close_requested_returns.

(* for every history of dials, housekeeping runs, session / scheduler changes and underlays ending by themselves: every
   underlay whose loops run is in the table (or closed), and Mux.Close closes every one of them; cleanUnderlay only
   keeps an entry or closes it *)
Theorem C15_mux_close_releases_every_running_underlay : (forall ops,
  forallb tracked (mux_run clean_one [] ops) = true
  /\ forallb u_done (mux_step clean_one (mux_run clean_one [] ops) MClose) = true
  /\ (forall u, tracked u = true -> tracked (clean_one u) = true
                /\ (clean_one u = u \/ (u_done (clean_one u) = true /\ u_listed (clean_one u) = false))))%nat.
Proof.
  intros ops. assert (T := mux_run_tracked ops [] eq_refl). split; [exact T|]. split.
  - simpl. eapply forallb_map_imp; [apply mux_close_one_done|exact T].
  - intros u H. split; [exact (clean_one_tracked u H)|exact (clean_one_keeps_or_closes u)].
Qed.
Print Assumptions C15_mux_close_releases_every_running_underlay.

(* the variant that drops an idle underlay which still has sessions: after one housekeeping run a running underlay
   is in no table, and Mux.Close leaves it running *)
Theorem C15_mux_clean_dropping_refuted : (exists ops, forallb tracked (mux_run clean_one_dropping [] ops) = false
    /\ forallb u_done (mux_step clean_one_dropping (mux_run clean_one_dropping [] ops) MClose) = false
    /\ forallb u_done (mux_step clean_one (mux_run clean_one [] ops) MClose) = true)%nat.
Proof. exact mux_clean_dropping_refuted. Qed.
Print Assumptions C15_mux_clean_dropping_refuted.

(* closeWithError sends the close request from every state in which the peer may hold the session; the variant that
   sends it only when ESTABLISHED misses the attached client session (open request sent, nothing read yet) *)
Theorem C15_close_request_whenever_peer_may_hold : ((forall st, peer_may_hold st = true -> code_sends_close_request st = true)
  /\ (exists st, peer_may_hold st = true /\ established_only_sends_close_request st = false))%nat.
Proof. exact close_request_whenever_peer_may_hold. Qed.
Print Assumptions C15_close_request_whenever_peer_may_hold.
