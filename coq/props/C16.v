(* C16 — traffic-pattern settings are honoured: explicit values survive implicit generation; unset ones are a
   deterministic function of seed and unlockAll and give a configuration that passes validation; nonce rewriting,
   padding, low entropy, stream fragmentation and the UDP server's nonces follow the configuration.  (The bytes on
   the wire are checked on network traces.)
   [fixed] is rng.FixedInt, [draw] math/rand.Intn: arbitrary functions with values in range.  The boolean after
   [fixed] is [clamp]: [true] is mieru with fixes/C16-implicit-minlen-above-explicit-maxlen.diff (an implicit
   minLen is clamped to an explicit maxLen). *)
From Coq Require Import ZArith List.
From M Require Import gen.Consts model.TrafficPattern proofs.TrafficPatternProofs.
Import ListNotations.
Open Scope Z_scope.

(* explicit fields survive generation; a field set to 0 counts as set *)
Theorem C16_gen_preserves_explicit : forall fixed clamp orig seed unlock,
  let e := generate_with fixed clamp orig seed unlock in
  tp_seed e = tp_seed orig /\ tp_unlock e = tp_unlock orig /\
  preserved (sub (tp_tcp orig) tf_enable) (sub (tp_tcp e) tf_enable) /\
  preserved (sub (tp_tcp orig) tf_max_sleep) (sub (tp_tcp e) tf_max_sleep) /\
  preserved (sub (tp_nonce orig) np_type) (sub (tp_nonce e) np_type) /\
  preserved (sub (tp_nonce orig) np_all_udp) (sub (tp_nonce e) np_all_udp) /\
  preserved (sub (tp_nonce orig) np_min) (sub (tp_nonce e) np_min) /\
  preserved (sub (tp_nonce orig) np_max) (sub (tp_nonce e) np_max) /\
  hex_of (tp_nonce e) = hex_of (tp_nonce orig) /\
  preserved (sub (tp_pad orig) pp_mid) (sub (tp_pad e) pp_mid) /\
  preserved (sub (tp_pad orig) pp_end) (sub (tp_pad e) pp_end) /\
  preserved (sub (tp_le orig) le_mode) (sub (tp_le e) le_mode) /\
  preserved (sub (tp_le orig) le_rot) (sub (tp_le e) le_rot).
Proof. exact gen_preserves_explicit. Qed.
Print Assumptions C16_gen_preserves_explicit.

(* no field of the effective pattern is left to the protobuf default *)
Theorem C16_gen_all_set : forall fixed clamp orig seed unlock,
  let e := generate_with fixed clamp orig seed unlock in
  is_set (sub (tp_tcp e) tf_enable) /\ is_set (sub (tp_tcp e) tf_max_sleep) /\
  is_set (sub (tp_nonce e) np_type) /\ is_set (sub (tp_nonce e) np_all_udp) /\
  is_set (sub (tp_nonce e) np_min) /\ is_set (sub (tp_nonce e) np_max) /\
  is_set (sub (tp_pad e) pp_mid) /\ is_set (sub (tp_pad e) pp_end) /\
  is_set (sub (tp_le e) le_mode) /\ is_set (sub (tp_le e) le_rot).
Proof. exact gen_all_set. Qed.
Print Assumptions C16_gen_all_set.

(* the oracle matters only at the ten hints "<seed>:<field>" of the seed in use *)
Theorem C16_gen_deterministic : forall f1 f2 clamp orig seed unlock,
  (forall n t, f1 n (seed, t) = f2 n (seed, t)) ->
  generate_with f1 clamp orig seed unlock = generate_with f2 clamp orig seed unlock.
Proof. exact gen_deterministic. Qed.
Print Assumptions C16_gen_deterministic.

(* h1, h2: the host-derived default seed (rng.FixedIntVH) *)
Theorem C16_gen_seed_explicit : forall fixed clamp orig s h1 h2,
  tp_seed orig = Some s -> generate fixed clamp orig h1 = generate fixed clamp orig h2.
Proof. exact gen_seed_explicit. Qed.
Print Assumptions C16_gen_seed_explicit.

(* mieru with the clamp: Validate accepts the effective pattern of every message it accepts *)
Theorem C16_effective_valid : forall fixed, oracle_ok fixed ->
  forall orig host_seed, valid orig -> valid (generate fixed true orig host_seed).
Proof.
  intros fixed Hf orig host_seed Hv. unfold generate. apply generate_with_valid; [exact Hf | exact Hv | left; reflexivity].
Qed.
Print Assumptions C16_effective_valid.

(* NewConfig succeeds exactly on valid messages, and then with a valid effective pattern *)
Theorem C16_new_config : forall fixed, oracle_ok fixed -> forall orig host_seed,
  (valid orig -> exists e, new_config fixed true orig host_seed = (0, Some e) /\ valid e) /\
  (~ valid orig -> snd (new_config fixed true orig host_seed) = None).
Proof.
  intros fixed Hf orig host_seed. unfold new_config, valid. split; intros H.
  - rewrite H. cbn. eexists; split; [reflexivity|]. apply C16_effective_valid; assumption.
  - destruct (Z.eqb_spec (validate orig) 0); [contradiction | reflexivity].
Qed.
Print Assumptions C16_new_config.

(* without the clamp ([clamp = false], the code before the repair): a valid message
   (only nonce.maxLen = 3 set) whose effective pattern is invalid whatever the oracle draws ... *)
Theorem C16_unfixed_maxlen_refuted :
  exists orig, valid orig /\
    forall fixed host_seed, oracle_ok fixed -> ~ valid (generate fixed false orig host_seed).
Proof.
  exists c16_witness. split; [reflexivity|].
  intros fixed host_seed Hf. eapply generate_noclamp_invalid; [exact Hf | reflexivity..].
Qed.
Print Assumptions C16_unfixed_maxlen_refuted.

(* ... and the part that did hold of it: unless maxLen is explicit while minLen is not *)
Theorem C16_unfixed_partial : forall fixed, oracle_ok fixed -> forall orig host_seed,
  valid orig -> (sub (tp_nonce orig) np_max = None \/ sub (tp_nonce orig) np_min <> None) ->
  valid (generate fixed false orig host_seed).
Proof.
  intros fixed Hf orig host_seed Hv Hc. unfold generate. apply generate_with_valid; [exact Hf | exact Hv | right; exact Hc].
Qed.
Print Assumptions C16_unfixed_partial.

(* nonceRewriteLen lies in [minLen, maxLen] clamped to the nonce size, for every draw *)
Theorem C16_nonce_len_in_range : forall draw n nonce_size, draw_ok draw ->
  let '(mn, mx) := nonce_rewrite_bounds n nonce_size in
  let len := nonce_rewrite_len draw n nonce_size in
  mn <= len <= mx /\
  mx = Z.min (getZ (np_max n)) nonce_size /\ mn = Z.min (getZ (np_min n)) mx /\
  (getZ (np_min n) <= getZ (np_max n) <= nonce_size -> getZ (np_min n) <= len <= getZ (np_max n)).
Proof. exact nonce_len_in_range. Qed.
Print Assumptions C16_nonce_len_in_range.

(* a stateless (UDP) cipher applies the pattern to the first packet, and to later ones iff applyToAllUDPPacket *)
Theorem C16_udp_once : forall all_udp k,
  udp_packet_patterned all_udp k = (match k with O => true | S _ => all_udp end).
Proof. exact udp_once. Qed.
Print Assumptions C16_udp_once.

(* a stateful (TCP) cipher applies it to every nonce *)
Theorem C16_stream_always : forall applied all_udp, nonce_pattern_applies true applied all_udp = true.
Proof. exact stream_always. Qed.
Print Assumptions C16_stream_always.

(* a configured maximum caps the padding budget; 0 means none *)
Theorem C16_pad_le_config : forall mtu stream frag existing p pd pos c,
  tp_pad p = Some pd ->
  (pos = 0 /\ pp_mid pd = Some c \/ pos = 1 /\ pp_end pd = Some c) -> 0 <= c ->
  let m := max_padding_tp mtu stream frag existing (Some p) pos in
  m = Z.min (max_padding_size mtu stream frag existing) c /\ 0 <= m <= c /\ (c = 0 -> m = 0) /\
  forall pad, 0 <= pad <= m -> pad <= c.
Proof. exact pad_le_config. Qed.
Print Assumptions C16_pad_le_config.

(* the send decision: exactly the configured mode and rotation, a client by its own setting alone *)
Theorem C16_le_decision : forall tp is_client client_used,
  let '(m, r, send) := le_send_decision tp is_client client_used in
  let '(cm, cr, en) := extract_le tp in
  (send = true -> en = true /\ m = cm /\ r = cr /\ cm <> C16_leModeOff /\ (is_client = true \/ client_used = true)) /\
  (send = false -> m = C16_leModeOff /\ r = C16_leRotNone) /\
  (is_client = true -> send = en) /\
  (en = true -> cm = getZ (sub (sub tp tp_le) le_mode) /\ cr = getZ (sub (sub tp tp_le) le_rot)).
Proof. exact le_decision_spec. Qed.
Print Assumptions C16_le_decision.

(* a server sends low entropy only after a low-entropy data segment of the client was received,
   for every history of received protocol types *)
Theorem C16_server_le_only_after_client : forall tp hist,
  let '(m, r, send) := server_send tp hist in
  (send = true -> In C16_protoDataC2SLowEntropy hist) /\
  (~ In C16_protoDataC2SLowEntropy hist -> send = false /\ m = C16_leModeOff /\ r = C16_leRotNone).
Proof. exact server_le_only_after_client. Qed.
Print Assumptions C16_server_le_only_after_client.

(* writeWithPossibleFragment: the conn.Write calls carry exactly the buffer's bytes in order, whatever is drawn;
   with fragmentation on no piece is empty and the loop ends after at most n pieces *)
Theorem C16_tcp_fragment_same_bytes : forall tp data draws,
  concat (tcp_writes tp data draws) = data /\
  (fragments_enabled tp = true -> Forall (fun p => p <> []) (tcp_writes tp data draws) /\
                                  (length (tcp_writes tp data draws) <= length data)%nat).
Proof. exact tcp_fragment_same_bytes. Qed.
Print Assumptions C16_tcp_fragment_same_bytes.

(* enable = true, and only that, fragments: pieces within [1, max(isqrt n + 1, n/2)], which is < n from n = 3 on,
   hence at least two writes; a sleep is drawn only when maxSleepMs > 0 *)
Theorem C16_tcp_fragment_honoured : forall tp data draws,
  let n := Z.of_nat (length data) in
  (fragments_enabled tp = true ->
     Forall (fun p => 1 <= Z.of_nat (length p) <= Z.max (Z.sqrt n + 1) (n / 2)) (tcp_writes tp data draws) /\
     (3 <= n -> (2 <= length (tcp_writes tp data draws))%nat /\ Z.max (Z.sqrt n + 1) (n / 2) < n)) /\
  (fragments_enabled tp = false -> tcp_writes tp data draws = [data]) /\
  (fragments_enabled tp = true <-> sub (sub tp tp_tcp) tf_enable = Some true) /\
  (forall d s, frag_sleep tp d = Some s ->
     0 <= s <= getZ (sub (sub tp tp_tcp) tf_max_sleep) /\ 0 < getZ (sub (sub tp tp_tcp) tf_max_sleep)) /\
  (getZ (sub (sub tp tp_tcp) tf_max_sleep) <= 0 -> forall d, frag_sleep tp d = None).
Proof. exact tcp_fragment_honoured. Qed.
Print Assumptions C16_tcp_fragment_honoured.

(* the threshold is exact: a buffer of 1 or 2 bytes leaves in one piece whatever is drawn *)
Theorem C16_tcp_fragment_small : forall data draws,
  (1 <= length data <= 2)%nat -> fragment_plan data draws = [data].
Proof. exact tcp_fragment_small. Qed.
Print Assumptions C16_tcp_fragment_small.

(* UDP server: whichever path produced the cipher block (discovered for the open request, block of an existing
   session, discovered for a datagram that opened none: rebinding / unknown session id), every emitted datagram
   carries the configured pattern, applied when applyToAllUDPPacket.  [hist]: any history of authenticated incoming
   datagrams; each is answered with as many datagrams as it calls for or with one (the closeSessionRequest to an
   unknown session id), the statement does not say which *)
Theorem C16_udp_pattern_independent_of_block_origin : forall tp hist,
  Forall2 (fun ev ds =>
             Forall (fun d => dg_pattern d = server_nonce_cfg tp /\
                              (forall np, server_nonce_cfg tp = Some np -> getB (np_all_udp np) = true ->
                                          dg_patterned d = true)) ds /\
             (length ds = ev_out ev \/ length ds = 1%nat))
          hist (srv_run tp true srv_empty hist).
Proof. exact udp_pattern_independent_of_block_origin. Qed.
Print Assumptions C16_udp_pattern_independent_of_block_origin.

(* whatever the path, the first datagram encrypted with a newly discovered block gets the pattern (also when
   applyToAllUDPPacket is false or unset) *)
Theorem C16_udp_first_datagram_patterned : forall tp path np,
  server_nonce_cfg tp = Some np -> dg_patterned (fst (emit_one path (discover tp true path))) = true.
Proof. exact udp_first_datagram_patterned. Qed.
Print Assumptions C16_udp_first_datagram_patterned.
