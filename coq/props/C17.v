(* C17 — the low-entropy codec is lossless, canonical, and the portable bit deposit / extract agree with
   the Intel definition.  Model: base/Bits64.v, model/LowEntropy.v (constants from gen/Consts.v).
   Conventions: bytes are N (< 256: [bytes_ok]); the half mask is a uint32 ([hm < 2^32]); [nchunks n c] is the
   chunk count as the Go code computes it, proved equal to ceil(n/c) in C17_roundtrip. *)
From Coq Require Import NArith ZArith List Lia.
From M Require Import gen.Consts base.Bits64 model.LowEntropy proofs.Bits64Proofs proofs.Bits64LoopProofs proofs.Bits64IntelProofs proofs.LowEntropyProofs proofs.LowEntropyWireProofs.
From M Require Import gen.Translated proofs.TranslatedMathextProofs proofs.TranslatedLowEntropyProofs.
From M Require model.Wire.
Import ListNotations.
Open Scope N_scope.

(* the two inverse laws, for every x and every mask of any width *)
Theorem C17_pext_pdep : forall x m, pext (pdep x m) m = x mod 2 ^ popcount m.
Proof. exact pext_pdep. Qed.
Print Assumptions C17_pext_pdep.

Theorem C17_pdep_pext : forall x m, pdep (pext x m) m = N.land x m.
Proof. exact pdep_pext. Qed.
Print Assumptions C17_pdep_pext.

(* the portable Go loops pdepGeneric / pextGeneric (lowest-set-bit isolation mask & -mask, mask &= mask-1, moving
   source / result bit with uint64 wrap) compute PDEP / PEXT for every x and every 64-bit mask *)
Theorem C17_pdep_go_eq_spec : forall x mask, mask < W64 -> pdep_go x mask = pdep x mask.
Proof. exact pdep_go_eq_spec. Qed.
Print Assumptions C17_pdep_go_eq_spec.

Theorem C17_pext_go_eq_spec : forall x mask, mask < W64 -> pext_go x mask = pext x mask.
Proof. exact pext_go_eq_spec. Qed.
Print Assumptions C17_pext_go_eq_spec.

(* the current source of pdepGeneric / pextGeneric / RepeatUint32 (gen/Translated.v, translated from pkg/mathext/bit.go
   on every run; semantics base/MiniGo.v, uint64 values are Z in [0, 2^64)); [Some]: the 65 units of loop fuel suffice *)
Theorem C17_source_pdep_eq_spec : forall x mask : N, mask < W64 ->
  xl_mathext_pdepGeneric (Z.of_N x) (Z.of_N mask) = Some (Z.of_N (pdep x mask)).
Proof. intros x mask Hm. rewrite xl_pdepGeneric_eq_model, pdep_go_eq_spec by exact Hm. reflexivity. Qed.
Print Assumptions C17_source_pdep_eq_spec.

Theorem C17_source_pext_eq_spec : forall x mask : N, mask < W64 ->
  xl_mathext_pextGeneric (Z.of_N x) (Z.of_N mask) = Some (Z.of_N (pext x mask)).
Proof. intros x mask Hm. rewrite xl_pextGeneric_eq_model, pext_go_eq_spec by exact Hm. reflexivity. Qed.
Print Assumptions C17_source_pext_eq_spec.

Theorem C17_source_repeat32 : forall v : N, v < 2 ^ 32 ->
  xl_mathext_RepeatUint32 (Z.of_N v) = Z.of_N (repeat32 v).
Proof. exact xl_RepeatUint32_eq_model. Qed.
Print Assumptions C17_source_repeat32.

(* likewise the integer helpers of pkg/protocol/low_entropy.go: isValidLowEntropyRotation (an int32 enum), lowBits (the
   source panics for n < 0 - a shift by a negative count - and the translation returns None there), rotateLowEntropyMask
   (math/bits.RotateLeft64 by its specification; chunk indexes are >= 0 at every call), isLowEntropyProtocol (is_le_proto, on Z; C09 has the
   same function against Wire.is_low_entropy, and LowEntropyWireProofs.wire_proto ties the two) *)
Theorem C17_source_valid_rotation : forall r, (- 2 ^ 31 <= r < 2 ^ 31)%Z ->
  xl_protocol_isValidLowEntropyRotation r = valid_rotation r.
Proof. exact xl_isValidLowEntropyRotation_eq_model. Qed.
Print Assumptions C17_source_valid_rotation.

Theorem C17_source_lowbits : forall n, (0 <= n)%Z -> xl_protocol_lowBits n = Some (Z.of_N (lowbits (Z.to_N n))).
Proof. exact xl_lowBits_eq_model. Qed.
Print Assumptions C17_source_lowbits.

Theorem C17_source_rotate_mask : forall (init : N) (rot ci : Z),
  init < W64 -> (- 2 ^ 31 <= rot < 2 ^ 31)%Z -> (0 <= ci < 2 ^ 63)%Z ->
  xl_protocol_rotateLowEntropyMask (Z.of_N init) rot ci = Z.of_N (rotate_mask init rot (Z.to_N ci)).
Proof. exact xl_rotateLowEntropyMask_eq_model. Qed.
Print Assumptions C17_source_rotate_mask.

Theorem C17_source_is_le_proto : forall p, xl_protocol_isLowEntropyProtocol p = is_le_proto p.
Proof. reflexivity. Qed.
Print Assumptions C17_source_is_le_proto.

(* the mode table and the encoded length as the source computes them (error results are [true] in the translation's last
   component; lowEntropyEncodedPayloadLen divides by the table's value, so its translation is partial - None = panic -
   and the theorem shows it never is) *)
Theorem C17_source_mode_params : forall mode,
  xl_protocol_buildLowEntropyParams mode =
  match mode_params mode with Some (c, w) => ((c, w), false) | None => ((0, 0), true) end%Z.
Proof. exact xl_buildLowEntropyParams_eq_mode_params. Qed.
Print Assumptions C17_source_mode_params.

Theorem C17_source_enc_len : forall n mode, (- 2 ^ 61 < n < 2 ^ 61)%Z ->
  xl_protocol_lowEntropyEncodedPayloadLen n mode = Some (of_res (enc_len n mode)).
Proof. intros n mode Hn. apply xl_lowEntropyEncodedPayloadLen_eq_enc_len. lia. Qed.
Print Assumptions C17_source_enc_len.

(* the position-by-position rendering of the Intel SDM pseudo code (bit index m, counter k; pdep_intel / pext_intel)
   equals the structural definition, at every operand width n on the mask's low n bits *)
Theorem C17_pdep_intel_width : forall (n : nat) x mask,
  pdep_intel_loop n 0 0 x mask 0 = pdep x (mask mod 2 ^ N.of_nat n).
Proof. exact pdep_intel_width. Qed.
Print Assumptions C17_pdep_intel_width.

Theorem C17_pext_intel_width : forall (n : nat) x mask,
  pext_intel_loop n 0 0 x mask 0 = pext x (mask mod 2 ^ N.of_nat n).
Proof. exact pext_intel_width. Qed.
Print Assumptions C17_pext_intel_width.

Theorem C17_pdep_intel_eq_spec : forall x mask, mask < W64 -> pdep_intel x mask = pdep x mask.
Proof. exact pdep_intel_eq_spec. Qed.
Print Assumptions C17_pdep_intel_eq_spec.

Theorem C17_pext_intel_eq_spec : forall x mask, mask < W64 -> pext_intel x mask = pext x mask.
Proof. exact pext_intel_eq_spec. Qed.
Print Assumptions C17_pext_intel_eq_spec.

(* the mode table of docs/protocol.md is exactly what buildLowEntropyParams implements *)
Theorem C17_mode_table : forall mode c w,
  mode_params mode = Some (c, w) <-> In (mode, c, w) [(1, 4, 16); (2, 5, 20); (3, 6, 24); (4, 7, 28)]%Z.
Proof. exact mode_params_table. Qed.
Print Assumptions C17_mode_table.

(* exactly the 31 documented rotation codes are valid *)
Theorem C17_valid_rotations : forall r,
  valid_rotation r = true <-> (r = 0 \/ 1 <= r <= 15 \/ exists k, 1 <= k <= 15 /\ r = 16 * k)%Z.
Proof.
  intro r.
  unfold valid_rotation.
  change C17_rotNone with 0%Z. change C17_rotRight1 with 1%Z. change C17_rotRight15 with 15%Z.
  change C17_rotLeft1 with 16%Z. change C17_rotLeft15 with 240%Z.
  rewrite !Bool.orb_true_iff, !Bool.andb_true_iff, !Z.eqb_eq, !Z.leb_le.
  split.
  - intros [[H|H]|[[H1 H2] H3]]; [left; exact H | right; left; exact H | right; right].
    exists (r / 16)%Z. pose proof (Z.div_mod r 16 ltac:(lia)). lia.
  - intros [H|[H|(k & Hk & ->)]]; [left; left; exact H | left; right; exact H | right].
    rewrite Z.mul_comm, Z.mod_mul by lia. lia.
Qed.
Print Assumptions C17_valid_rotations.

(* round trip and length law; the only bound is the code's own: the chunk count fits the uint16 length field
   (<= 8191 chunks) *)
Theorem C17_roundtrip : forall body mode hm rot pb c w,
  bytes_ok body -> hm < 2 ^ 32 -> pb <= 1 ->
  mode_params mode = Some (c, w) -> Z.of_N (popcount hm) = w -> valid_rotation rot = true ->
  (1 <= length body)%nat -> (nchunks (Z.of_nat (length body)) c <= 8191)%Z ->
  exists e, encode body mode hm rot pb = Ok e /\
    Z.of_nat (length e) = (8 * nchunks (Z.of_nat (length body)) c)%Z /\
    nchunks (Z.of_nat (length body)) c = ((Z.of_nat (length body) + c - 1) / c)%Z /\
    bytes_ok e /\
    decode e (Z.of_nat (length body)) mode hm rot = Ok body.
Proof. exact le_roundtrip. Qed.
Print Assumptions C17_roundtrip.

(* canonicity: whatever the decoder accepts is the encoder's output for the decoded body with one of the two padding bits *)
Theorem C17_canonical : forall e n mode hm rot b,
  bytes_ok e -> hm < 2 ^ 32 ->
  decode e n mode hm rot = Ok b ->
  exists pb, pb <= 1 /\ encode b mode hm rot pb = Ok e /\ Z.of_nat (length b) = n /\ bytes_ok b.
Proof. exact le_canonical. Qed.
Print Assumptions C17_canonical.

(* both directions: the decoder accepts exactly the encoder's outputs *)
Theorem C17_accepts_iff_canonical : forall e n mode hm rot b,
  bytes_ok e -> hm < 2 ^ 32 ->
  (decode e n mode hm rot = Ok b <->
   exists pb, pb <= 1 /\ encode b mode hm rot pb = Ok e /\ Z.of_nat (length b) = n /\ bytes_ok b).
Proof.
  intros e n mode hm rot b Hok Hh. split; [apply le_canonical; assumption|].
  intros (pb & Hpb & Henc & Hn & Hbok).
  destruct (encode_inv _ _ _ _ _ _ Henc) as (c & w & Hm & Hw & Hr & _ & Hl & Hnc & _).
  destruct (le_roundtrip b mode hm rot pb c w) as (e' & He' & _ & _ & _ & Hdec); try assumption; [lia|].
  rewrite Henc in He'. injection He' as <-. rewrite <- Hn. exact Hdec.
Qed.
Print Assumptions C17_accepts_iff_canonical.

(* rejections, each with its own error: invalid mode, wrong mask weight, invalid rotation, padding bit > 1,
   empty / oversized body, inconsistent lengths *)
Theorem C17_rejects : forall e body n mode hm rot pb,
  (mode_params mode = None ->
     encode body mode hm rot pb = Err ErrMode /\ decode e n mode hm rot = Err ErrMode) /\
  (forall c w, mode_params mode = Some (c, w) -> Z.of_N (popcount hm) <> w ->
     encode body mode hm rot pb = Err ErrWeight /\ decode e n mode hm rot = Err ErrWeight) /\
  (forall c w, mode_params mode = Some (c, w) -> Z.of_N (popcount hm) = w -> valid_rotation rot = false ->
     encode body mode hm rot pb = Err ErrRotation /\ decode e n mode hm rot = Err ErrRotation) /\
  (forall c w, mode_params mode = Some (c, w) -> Z.of_N (popcount hm) = w -> valid_rotation rot = true ->
     (1 < pb -> encode body mode hm rot pb = Err ErrPadBit) /\
     (pb <= 1 -> body = [] -> encode body mode hm rot pb = Err ErrLen) /\
     (pb <= 1 -> (nchunks (Z.of_nat (length body)) c > 8191)%Z -> encode body mode hm rot pb = Err ErrTooBig) /\
     ((n <= 0)%Z -> decode e n mode hm rot = Err ErrLen) /\
     ((1 <= n)%Z -> (nchunks n c > 8191)%Z -> decode e n mode hm rot = Err ErrTooBig) /\
     ((1 <= n)%Z -> (nchunks n c <= 8191)%Z -> Z.of_nat (length e) <> (8 * nchunks n c)%Z ->
        decode e n mode hm rot = Err ErrEncLen)).
Proof. exact le_rejects. Qed.
Print Assumptions C17_rejects.

(* mixed padding: dec_chunk fails on a chunk whose non-data positions are neither all 0 nor all 1, whatever
   polarity [pbo] the earlier chunks have set *)
Theorem C17_mixed_padding_refused : forall M L pbo g,
  let PM := not64 (pdep (lowbits (8 * N.of_nat L)) M) in
  N.land (be_val g) PM <> 0 -> N.land (be_val g) PM <> PM ->
  exists e, dec_chunk M L pbo g = Err e.
Proof.
  intros M L pbo g PM H0 H1.
  destruct (dec_chunk M L pbo g) as [[pb bs]|e] eqn:E; [|exists e; reflexivity].
  apply dec_chunk_inv in E. destruct E as (_ & _ & Hpad & _). destruct pb; contradiction.
Qed.
Print Assumptions C17_mixed_padding_refused.

(* validateLowEntropyDataAckMetadata accepts exactly the consistent field combinations *)
Theorem C17_meta_ties_lengths : forall proto mode hm epl pl rot,
  validate_meta proto mode hm epl pl rot = Ok tt <->
  is_le_proto proto = true /\ (epl <= C17_maxPDU)%Z /\
  exists c w, mode_params mode = Some (c, w) /\ Z.of_N (popcount hm) = w /\ valid_rotation rot = true /\
    ((epl = 0 /\ pl = 0)%Z \/
     (1 <= epl /\ nchunks epl c <= 8191 /\ pl = 8 * nchunks epl c)%Z).
Proof. exact meta_ties_lengths. Qed.
Print Assumptions C17_meta_ties_lengths.

(* cross-model (C09): Wire.v's validity test of low-entropy data metadata (types 10 / 11) and validate_meta, the two
   transcriptions of validateLowEntropyDataAckMetadata, agree *)
Theorem C17_meta_agrees_with_wire : forall p mode mask elen plen rot : N,
  (Wire.is_low_entropy p && Wire.le_meta_ok mode mask elen plen rot)%bool = true <->
  validate_meta (Z.of_N p) (Z.of_N mode) mask (Z.of_N elen) (Z.of_N plen) (Z.of_N rot) = Ok tt.
Proof. exact meta_agrees_with_wire. Qed.
Print Assumptions C17_meta_agrees_with_wire.

(* the test vector of docs/protocol.md *)
Theorem C17_doc_vector :
  encode doc_body 1 doc_hm 0 0 = Ok [1;2;3;4;5;6;7;8] /\
  encode doc_body 1 doc_hm 0 1 = Ok [241;242;243;244;245;246;247;248].
Proof. exact doc_vector. Qed.
Print Assumptions C17_doc_vector.

(* the current source of validateLowEntropyCodecParams (math/bits.OnesCount32 by specification) accepts exactly the
   triples validate_params accepts and returns the mode's parameters *)
Theorem C17_source_codec_params : forall (mode : Z) (hm : N) (rot : Z), (- 2 ^ 31 <= rot < 2 ^ 31)%Z ->
  xl_protocol_validateLowEntropyCodecParams mode (Z.of_N hm) rot =
  match validate_params mode hm rot with Ok (c, w) => ((c, w), false) | Err _ => ((0, 0), true) end%Z.
Proof.
  intros mode hm rot Hr. unfold xl_protocol_validateLowEntropyCodecParams, validate_params.
  rewrite xl_buildLowEntropyParams_eq_mode_params, go_popcount_of_N, xl_isValidLowEntropyRotation_eq_model by exact Hr.
  destruct (mode_params mode) as [[c w]|]; cbn [Bool.eqb negb]; [|reflexivity].
  destruct (Z.of_N (popcount hm) =? w)%Z; cbn [negb]; [|reflexivity].
  destruct (valid_rotation rot); reflexivity.
Qed.
Print Assumptions C17_source_codec_params.

(* likewise lowEntropyChunkMask, the entry point that validates rotation and chunk index before rotating *)
Theorem C17_source_chunk_mask : forall (init : N) (rot ci : Z),
  init < W64 -> (- 2 ^ 31 <= rot < 2 ^ 31)%Z -> (- 2 ^ 63 <= ci < 2 ^ 63)%Z ->
  xl_protocol_lowEntropyChunkMask (Z.of_N init) rot ci =
  match chunk_mask init rot ci with Ok v => (Z.of_N v, false) | Err _ => (0%Z, true) end.
Proof. intros init rot ci Hi Hr Hc. apply xl_lowEntropyChunkMask_eq_model; [exact Hi | exact Hr | apply Hc]. Qed.
Print Assumptions C17_source_chunk_mask.
