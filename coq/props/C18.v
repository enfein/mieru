(* C18 — UDP-associate tunnelling preserves datagram boundaries, contents and addressing.
   Each theorem is closed by [exact] of the lemma of that name in proofs/FrameProofs.v or proofs/Socks5UdpProofs.v;
   the latter defines [canon], [relay_memo], [designates] and [wf_in].
   Sizes are N (lenN); MAXLEN = 65535 comes from the regenerated constants. *)
From Coq Require Import NArith ZArith List.
From M Require Import gen.Consts model.Frame model.Socks5Udp proofs.FrameProofs proofs.Socks5UdpProofs.
Import ListNotations.
Open Scope N_scope.

(* chunking independence: however the carrying stream is cut into conn.Read results *)
Theorem C18_feed_app : forall cap a b ph,
  feed cap ph (a ++ b) = (let (e1, p1) := feed cap ph a in let (e2, p2) := feed cap p1 b in (e1 ++ e2, p2)).
Proof. exact feed_app. Qed.
Print Assumptions C18_feed_app.

(* every list of datagrams the writer accepts (any byte values), every chunking, every reader buffer (cap = len(p))
   that holds each datagram: exactly that list, in order, then a clean EOF *)
Theorem C18_frame_stream_roundtrip : forall cap ds s chunks,
  write_all ds = Some s ->
  Forall (fun d => lenN d <= cap) ds ->
  concat chunks = s ->
  feed_chunks cap PStart chunks = (map EvD ds, PStart) /\
  read_loop cap s = map EvD ds ++ [EvErr EEof].
Proof. exact frame_stream_roundtrip. Qed.
Print Assumptions C18_frame_stream_roundtrip.

(* with the buffer of the relay loops (1<<16 >= MAXLEN) the size limit of the length field is the only condition *)
Theorem C18_frame_stream_roundtrip_maxbuf : forall cap ds chunks,
  MAXLEN <= cap ->
  Forall (fun d => lenN d <= MAXLEN) ds ->
  concat chunks = concat (map frame ds) ->
  write_all ds = Some (concat (map frame ds)) /\
  feed_chunks cap PStart chunks = (map EvD ds, PStart).
Proof. exact frame_stream_roundtrip_maxbuf. Qed.
Print Assumptions C18_frame_stream_roundtrip_maxbuf.

(* an oversized datagram is refused and nothing of it is written (first conjunct); the second is about the model's
   all-or-nothing [write_all]: in the code every datagram is a Write of its own and ds1 is on the stream by then *)
Theorem C18_write_oversize : forall ds1 d ds2, MAXLEN < lenN d -> write d = None /\ write_all (ds1 ++ d :: ds2) = None.
Proof. exact write_oversize. Qed.
Print Assumptions C18_write_oversize.

(* bad start marker / announced length above the reader's buffer / bad end marker / truncation, after any number of
   good frames: exactly the good datagrams, then that error, nothing after it *)
Theorem C18_frame_error : forall cap ds, Forall (fun d => lenN d <= cap) ds ->
  let pre := concat (map frame ds) in
  (forall b rest, b <> START ->
     read_loop cap (pre ++ b :: rest) = map EvD ds ++ [EvErr EBadStart]) /\
  (forall hi lo rest, cap < hi * 256 + lo ->
     read_loop cap (pre ++ START :: hi :: lo :: rest) = map EvD ds ++ [EvErr EShortBuf]) /\
  (forall d b rest, lenN d <= cap -> b <> END_ ->
     read_loop cap (pre ++ START :: lenN d / 256 :: lenN d mod 256 :: d ++ b :: rest) = map EvD ds ++ [EvErr EBadEnd]) /\
  (forall d p q, lenN d <= cap -> frame d = p ++ q -> q <> [] ->
     exists e, (e = EEof \/ e = EUnexpectedEof) /\ read_loop cap (pre ++ p) = map EvD ds ++ [EvErr e]).
Proof. exact frame_error. Qed.
Print Assumptions C18_frame_error.

(* on ANY stream: never a wrong datagram, no resynchronisation.  [bytes_ok] matters for the low length byte only
   (hi * 256 + lo with lo >= 256 is not how [frame] writes that length) *)
Theorem C18_read_loop_sound : forall cap s, bytes_ok s -> exists ds e rest,
  read_loop cap s = map EvD ds ++ [EvErr e] /\ s = concat (map frame ds) ++ rest /\
  Forall (fun d => lenN d <= cap) ds.
Proof. exact read_loop_sound. Qed.
Print Assumptions C18_read_loop_sound.

(* newSocks5UDPDatagram then parseSocks5UDPDatagram, for IPv4 / IPv6 / domain; AddrSpec.From ensures both hypotheses *)
Theorem C18_udp_header_roundtrip : forall a payload pkt,
  port a < 65536 ->
  (to16 (ip a) = None -> lenN (fqdn a) <= 255) ->
  build_dgram a payload = Some pkt ->
  exists hdr, build_dgram a [] = Some hdr /\ pkt = hdr ++ payload /\
              parse pkt = POk (canon a) hdr payload.
Proof. exact udp_header_roundtrip. Qed.
Print Assumptions C18_udp_header_roundtrip.

(* too short, reserved bytes, fragment flag, unknown address type; last clause: in what is accepted the header alone
   determines the address *)
Theorem C18_udp_header_rejects :
  (forall pkt, lenN pkt <= SHORT -> parse pkt = PErr PNoData) /\
  (forall b0 b1 b2 r, SHORT < lenN (b0 :: b1 :: b2 :: r) -> (b0 <> 0 \/ b1 <> 0) -> parse (b0 :: b1 :: b2 :: r) = PErr PInvalid) /\
  (forall b2 r, SHORT < lenN (0 :: 0 :: b2 :: r) -> b2 <> 0 -> parse (0 :: 0 :: b2 :: r) = PErr PUnsupported) /\
  (forall t r, SHORT < lenN (0 :: 0 :: 0 :: t :: r) -> t <> ATYP4 -> t <> ATYP6 -> t <> ATYPD ->
     parse (0 :: 0 :: 0 :: t :: r) = PErr PAddrType) /\
  (forall pkt a h p, parse pkt = POk a h p -> pkt = h ++ p /\ forall p', parse (h ++ p') = POk a h p').
Proof. exact udp_header_rejects. Qed.
Print Assumptions C18_udp_header_rejects.

(* each datagram of the client goes, payload unchanged, to the destination named in its header ([dns] = the
   resolver's answer for a name), or is dropped *)
Theorem C18_relay_dest_is_header : forall m pkt dns a h p,
  parse pkt = POk a h p ->
  pkt = h ++ p /\
  (forall v, to16 (ip a) = Some v ->
     relay_step m (Up pkt dns) = (memo_set m (key (mkUdp (ip a) (port a))) h, OSend (mkUdp (ip a) (port a)) p)) /\
  (forall i, to16 (ip a) = None -> fqdn a <> [] -> dns = Some i ->
     relay_step m (Up pkt dns) = (memo_set m (key (mkUdp i (port a))) h, OSend (mkUdp i (port a)) p)) /\
  (to16 (ip a) = None -> (fqdn a = [] \/ dns = None) -> relay_step m (Up pkt dns) = (m, ODrop)).
Proof. exact relay_dest_is_header. Qed.
Print Assumptions C18_relay_dest_is_header.

(* a malformed header ends the association with the parser's error *)
Theorem C18_relay_bad_header_stops : forall m pkt dns e, parse pkt = PErr e ->
  relay_step m (Up pkt dns) = (m, OStopParse e).
Proof. exact relay_bad_header_stops. Qed.
Print Assumptions C18_relay_bad_header_stops.

(* after every history of the association a reply is header ++ payload as received, fits a frame, and its header
   designates the sender; [relay_memo hist] is the memo of the running loop (relay_run_memo) *)
Theorem C18_reply_header_is_sender : forall hist s payload m' pkt,
  Forall wf_in hist -> uport s < 65536 ->
  relay_step (relay_memo hist) (Down s payload) = (m', OClient pkt) ->
  exists a h, pkt = h ++ payload /\ parse pkt = POk a h payload /\ designates hist a h (key s) /\
              write pkt = Some (frame pkt).
Proof. exact reply_header_is_sender. Qed.
Print Assumptions C18_reply_header_is_sender.

(* API wrapper with fixes/C18-wrapper-empty-payload.diff, the empty payload included.  [wrapper_write] is None for an
   IP of neither 4 nor 16 bytes, where the code still sends something: not covered *)
Theorem C18_wrapper_roundtrip : forall cap p to b,
  uport to < 65536 -> lenN p <= cap ->
  wrapper_write p to = Some b ->
  wrapper_read cap b = WOk p (mkUdp (norm_ip (uip to)) (uport to)).
Proof. exact wrapper_roundtrip. Qed.
Print Assumptions C18_wrapper_roundtrip.
