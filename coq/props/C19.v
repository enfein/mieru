(* C19 — traffic accounting is conserved; quotas bind exactly the user who exceeded them. *)
From Coq Require Import ZArith List Lia.
From M Require Import gen.Consts model.Counter model.Quota model.Account proofs.CounterProofs proofs.QuotaProofs proofs.AccountProofs.
Import ListNotations.
Open Scope Z_scope.

(* compacting never changes the total: every history (any timestamps, labels, deltas), every clock value *)
Theorem C19_rollup_sum : forall now h, hsum (roll_up now h) = hsum h.
Proof. exact rollup_sum. Qed.
Print Assumptions C19_rollup_sum.

(* ... and every single doRollUp pass, whatever its labels, threshold and granularity *)
Theorem C19_pass_sum : forall from to dur trunc now h, hsum (do_roll_up from to dur trunc now h) = hsum h.
Proof. exact do_roll_up_sum. Qed.
Print Assumptions C19_pass_sum.

(* compacting never disorders a history the counter can have built (invariant of DESIGN A.6), and keeps the invariant *)
Theorem C19_rollup_sorted : forall now hi h, wf_history hi h -> sorted (roll_up now h) /\ wf_history hi (roll_up now h).
Proof. intros now hi h H. split; [exact (rollup_sorted now hi h H) | exact (rollup_wf now hi h H)]. Qed.
Print Assumptions C19_rollup_sorted.

(* all histories of increments with non-decreasing timestamps, any start of the operation counter (so roll-up
   falls at any operation count), any clock values: the stored history is ordered in time *)
Theorem C19_history_sorted : forall ops op0 hi, mono_adds hi ops -> sorted (c_hist (run ops (mkC 0 [] op0))).
Proof. exact history_sorted. Qed.
Print Assumptions C19_history_sorted.

(* the order claim needs the invariant: a time-ordered history with a forged (unaligned) label is disordered *)
Theorem C19_rollup_sorted_any_history_refuted : exists now h, sorted h /\ ~ sorted (roll_up now h).
Proof.
  exists (100 * C19_SecondNs), [mkE 1500 1 C19_LabelMinute; mkE 1700 1 C19_LabelNoRollUp].
  split; [cbn; lia|].
  replace (roll_up _ _) with [mkE 1500 1 C19_LabelMinute; mkE 1000 1 C19_LabelSecond] by (vm_compute; reflexivity).
  cbn. lia.
Qed.
Print Assumptions C19_rollup_sorted_any_history_refuted.

(* with non-negative deltas no window reports more than the total (nor less than nothing), ordered history or not *)
Theorem C19_window_le_total : forall h t1 t2, nonneg h -> 0 <= delta_between h t1 t2 <= hsum h.
Proof. exact window_le_total. Qed.
Print Assumptions C19_window_le_total.

(* value = sum of the history, over every operation history (arbitrary timestamps, roll-ups wherever they fall) *)
Theorem C19_value_eq_history_sum : forall ops c, consistent c -> consistent (run ops c).
Proof. exact value_eq_history_sum. Qed.
Print Assumptions C19_value_eq_history_sum.

(* ... = sum of the increments: nothing but Add changes the value *)
Theorem C19_value_eq_increments : forall ops c, c_value (run ops c) = c_value c + ops_sum ops.
Proof. exact value_eq_increments. Qed.
Print Assumptions C19_value_eq_increments.

(* reloading a dump (loadCounterFromMetricPB) never decreases a total *)
Theorem C19_load_monotone : forall dst same v h now, c_value dst <= c_value (load_pb dst same v h now).
Proof. exact load_monotone. Qed.
Print Assumptions C19_load_monotone.

(* loading a consistent dump (v = sum of h) into a counter that is not ahead of it is lossless *)
Theorem C19_load_lossless : forall dst v h now,
  v = hsum h -> c_value dst <= v ->
  let c := load_pb dst true v h now in c_value c = v /\ c_hist c = h /\ consistent c.
Proof. exact load_lossless. Qed.
Print Assumptions C19_load_lossless.

(* refused <=> own policy, own counters, and for some quota: window sum quot 2^20 > megabytes; days_ok keeps the int64
   window arithmetic from wrapping (otherwise DeltaBetween panics) *)
Theorem C19_quota_refuse_iff : forall pol u m now,
  (forall p, pol = Some p -> Forall days_ok (p_quotas p)) ->
  (refused (check_quota pol u m now) = true <->
   exists p up down q, pol = Some p /\ p_name p = u /\ lookup u m = Some (up, down) /\
                       In q (p_quotas p) /\ exceeded q up down now).
Proof. exact quota_refuse_iff. Qed.
Print Assumptions C19_quota_refuse_iff.

(* whole MiB by truncating division, strictly greater: a quota of m megabytes is exceeded from (m + 1) * 2^20 bytes on *)
Theorem C19_exceeded_bytes : forall q up down now, 0 <= q_mb q ->
  (exceeded q up down now <-> (q_mb q + 1) * C19_QuotaBytesPerMegabyte <= window_total q up down now).
Proof. exact exceeded_bytes. Qed.
Print Assumptions C19_exceeded_bytes.

(* users within their allowance are never refused *)
Theorem C19_within_allowance_never_refused : forall p u m up down now,
  Forall days_ok (p_quotas p) -> lookup u m = Some (up, down) -> nonneg up -> nonneg down ->
  (forall q, In q (p_quotas p) -> 0 <= q_mb q /\ hsum up + hsum down < (q_mb q + 1) * C19_QuotaBytesPerMegabyte) ->
  refused (check_quota (Some p) u m now) = false.
Proof. exact within_allowance_never_refused. Qed.
Print Assumptions C19_within_allowance_never_refused.

(* isolation: the decision for u depends only on u's policy and u's counters; other users' counters never matter;
   a user without quotas (or a session without the user's own policy, or without counters) is never refused *)
Theorem C19_isolation : forall pol u now,
  (forall m m', lookup u m = lookup u m' -> check_quota pol u m now = check_quota pol u m' now) /\
  (forall v x m, name_eqb v u = false -> check_quota pol u ((v, x) :: m) now = check_quota pol u m now) /\
  (forall m, (pol = None \/ (exists p, pol = Some p /\ (p_quotas p = [] \/ p_name p <> u)) \/ lookup u m = None) ->
             refused (check_quota pol u m now) = false).
Proof.
  intros pol u now. split; [|split].
  - intros m m'. apply quota_isolation.
  - intros v x m E. apply quota_isolation, lookup_other, E.
  - intros m. apply never_refused_without_own_quota.
Qed.
Print Assumptions C19_isolation.

(* the allowance is counted in whole MiB: traffic up to 1 MiB - 1 byte above it is still admitted *)
Theorem C19_quota_whole_mib_slack :
  exists q up down now, days_ok q /\ window_total q up down now = q_mb q * C19_QuotaBytesPerMegabyte + (C19_QuotaBytesPerMegabyte - 1) /\
                        check_quotas [q] up down now = QAllow.
Proof. exact quota_whole_mib_slack. Qed.
Print Assumptions C19_quota_whole_mib_slack.

(* the constants the model is instantiated with are the documented ones *)
Theorem C19_consts_ok :
  C19_RollUpInterval = 1000 /\
  C19_RollUpToSecondNs = 2 * C19_SecondNs /\ C19_RollUpSecondToMinuteNs = 120 * C19_SecondNs /\
  C19_RollUpMinuteToHourNs = 120 * C19_MinuteNs /\ C19_RollUpHourToDayNs = 8 * C19_DayNs /\
  7 * C19_DayNs + C19_DayNs <= C19_RollUpHourToDayNs /\
  [C19_LabelNoRollUp; C19_LabelSecond; C19_LabelMinute; C19_LabelHour; C19_LabelDay] = [0; 1; 2; 3; 4] /\
  C19_QuotaBytesPerMegabyte = 2 ^ 20 /\ C19_QuotaHoursPerDay * C19_HourNs = C19_DayNs.
Proof. exact consts_ok. Qed.
Print Assumptions C19_consts_ok.

(* the validator's bound (regenerated from the real ValidateServerConfigSingleUser) lies inside the range where the
   window arithmetic does not wrap *)
Theorem C19_max_quota_days_ok : 0 < C19_MaxQuotaDays <= max_days.
Proof. exact max_quota_days_ok. Qed.
Print Assumptions C19_max_quota_days_ok.

(* every user record that passes validation: checkQuota never panics, for every counter state and every instant *)
Theorem C19_validated_quota_never_panics : forall pol u m now,
  (forall p, pol = Some p -> validate_user_quotas (p_quotas p) = true) ->
  check_quota pol u m now <> QPanic.
Proof. exact validated_quota_never_panics. Qed.
Print Assumptions C19_validated_quota_never_panics.

(* the refusal criterion, with the validator as the premise *)
Theorem C19_quota_refuse_iff_validated : forall pol u m now,
  (forall p, pol = Some p -> validate_user_quotas (p_quotas p) = true) ->
  (refused (check_quota pol u m now) = true <->
   exists p up down q, pol = Some p /\ p_name p = u /\ lookup u m = Some (up, down) /\
                       In q (p_quotas p) /\ exceeded q up down now).
Proof. exact quota_refuse_iff_validated. Qed.
Print Assumptions C19_quota_refuse_iff_validated.

(* a record the validator refuses (days above maxQuotaDays) does make DeltaBetween panic: the premise of
   C19_validated_quota_never_panics cannot be dropped *)
Theorem C19_unvalidated_days_overflow_refuted_before_fix :
  exists p u m now, validate_user_quotas (p_quotas p) = false /\ check_quota (Some p) u m now = QPanic.
Proof.
  exists (mkP ex_alice [mkQ (max_days + 1) 1]), ex_alice, [(ex_alice, ([], []))], 0. split; [reflexivity|].
  rewrite (check_quota_own _ ex_alice _ [] [] 0) by reflexivity. exact quota_days_overflow_panics.
Qed.
Print Assumptions C19_unvalidated_days_overflow_refuted_before_fix.

(* on a history ordered in time DeltaBetween(t1, t2) is exactly the sum of the deltas with t1 < ts <= t2 *)
Theorem C19_window_is_range_sum : forall h t1 t2, sorted h -> t1 <= t2 ->
  delta_between h t1 t2 = hsum (filter (in_window t1 t2) h).
Proof. exact window_is_range_sum. Qed.
Print Assumptions C19_window_is_range_sum.

(* ... and the order is needed: the binary searches of DeltaBetween miss entries of an unordered history *)
Theorem C19_window_is_range_sum_unsorted_refuted :
  exists h t1 t2, t1 <= t2 /\ delta_between h t1 t2 <> hsum (filter (in_window t1 t2) h).
Proof.
  exists [mkE 5000 1 C19_LabelNoRollUp; mkE 1000 2 C19_LabelNoRollUp; mkE 1000 4 C19_LabelNoRollUp],
         (2000 * C19_MillisecondNs), (6000 * C19_MillisecondNs).
  split; vm_compute; discriminate.
Qed.
Print Assumptions C19_window_is_range_sum_unsorted_refuted.

(* Session.Read with its leftover buffer: for any sequence of Read calls (any buffer sizes) the returned slices are the
   front of the stream and the bytes counted against the user are exactly the sum of the returned lengths *)
Theorem C19_reads_count : forall wants st,
  let '(outs, st') := reads st wants in
  concat outs ++ pending st' = pending st /\
  r_counted st' = r_counted st + Z.of_nat (length (concat outs)).
Proof. exact reads_count. Qed.
Print Assumptions C19_reads_count.

(* however the application cuts the stream into reads, once it is drained the same total has been counted *)
Theorem C19_count_is_partition_independent : forall st wants1 wants2,
  pending (snd (reads st wants1)) = [] -> pending (snd (reads st wants2)) = [] ->
  r_counted (snd (reads st wants1)) = r_counted (snd (reads st wants2)) /\
  r_counted (snd (reads st wants1)) = r_counted st + Z.of_nat (length (pending st)) /\
  concat (fst (reads st wants1)) = pending st /\ concat (fst (reads st wants2)) = pending st.
Proof. exact count_is_partition_independent. Qed.
Print Assumptions C19_count_is_partition_independent.

(* the statement discriminates: a Read that serves the leftover on an early-returning fast path violates it *)
Theorem C19_leftover_fastpath_refuted :
  exists st wants1 wants2,
    pending (snd (reads_fastpath st wants1)) = [] /\ pending (snd (reads_fastpath st wants2)) = [] /\
    concat (fst (reads_fastpath st wants1)) = concat (fst (reads_fastpath st wants2)) /\
    r_counted (snd (reads_fastpath st wants1)) <> r_counted (snd (reads_fastpath st wants2)).
Proof.
  exists (mkR [[1%N; 2%N; 3%N; 4%N]] [] 0), [2%nat; 2%nat], [4%nat].
  repeat apply conj; vm_compute; try reflexivity; discriminate.
Qed.
Print Assumptions C19_leftover_fastpath_refuted.

(* over any history of reloads and traffic: the policy handed to the next session of u, and the decision taken on it,
   are those of the configuration of the most recent SetUsers *)
Theorem C19_reload_takes_effect : forall r0 pre cfg post u m now,
  Forall is_traffic post ->
  policy_in_force (run_registry r0 (pre ++ EvReload cfg :: post)) u =
    option_map (fun x => mkP (ur_name x) (ur_quotas x)) (find_user u cfg) /\
  decision (run_registry r0 (pre ++ EvReload cfg :: post)) u m now =
    check_quota (option_map (fun x => mkP (ur_name x) (ur_quotas x)) (find_user u cfg)) u m now.
Proof. exact reload_takes_effect. Qed.
Print Assumptions C19_reload_takes_effect.

(* ... so the next session of u is refused iff a quota of the reloaded, validated configuration is exceeded *)
Theorem C19_reload_refuse_iff : forall r0 pre cfg post u m now,
  Forall is_traffic post ->
  (forall x, find_user u cfg = Some x -> validate_user_quotas (ur_quotas x) = true) ->
  (refused (decision (run_registry r0 (pre ++ EvReload cfg :: post)) u m now) = true <->
   exists x up down q, find_user u cfg = Some x /\ lookup u m = Some (up, down) /\
                       In q (ur_quotas x) /\ exceeded q up down now).
Proof. exact reload_refuse_iff. Qed.
Print Assumptions C19_reload_refuse_iff.

(* the statement discriminates: keeping the generation when ids, names and credentials agree drops a quota-only reload *)
Theorem C19_reload_identity_shortcut_refuted :
  exists cfg1 cfg2 u,
    policy_in_force (set_users_shortcut (set_users_shortcut None cfg1) cfg2) u <>
    option_map (fun x => mkP (ur_name x) (ur_quotas x)) (find_user u cfg2).
Proof.
  exists [mkU ex_alice 7 []], [mkU ex_alice 7 [mkQ 1 1]], ex_alice. vm_compute. discriminate.
Qed.
Print Assumptions C19_reload_identity_shortcut_refuted.
