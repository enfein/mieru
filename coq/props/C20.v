(* C20 — configuration handling is total, lossless, and keeps server passwords hashed.
   Scope (see checks/c20.py ASSUMPTIONS): mieru's own logic — merge of patches, hashing before storing,
   guards and slicing of the link parsers, port / port-range parsing.  protobuf, protojson, base64, net/url
   enter as arbitrary inputs (the theorems hold for every answer the library could give). *)
From Coq Require Import List NArith ZArith.
From M Require Import gen.Consts model.Config proofs.ConfigProofs.
Import ListNotations.

(* applying a server patch changes only what the patch sets; users are merged by name, users the patch
   does not name are unchanged, nobody disappears, nothing is invented *)
Theorem C20_merge_server_only_set : forall old patch : server_cfg,
  let r := merge_server old patch in
  takes (s_ports r) (s_ports patch) (s_ports old) /\
  takes (s_adv r) (s_adv patch) (s_adv old) /\
  takes_z (s_log r) (s_log patch) (s_log old) /\
  takes_z (s_mtu r) (s_mtu patch) (s_mtu old) /\
  takes (s_egress r) (s_egress patch) (s_egress old) /\
  takes (s_dns r) (s_dns patch) (s_dns old) /\
  takes (s_tp r) (s_tp patch) (s_tp old) /\
  (forall name, find_last uname name (s_users r) =
                match find_last uname name (s_users patch) with
                | Some u => Some u
                | None => find_last uname name (s_users old)
                end) /\
  names_sorted uname (s_users r) /\
  (forall u, In u (s_users r) -> In u (s_users patch) \/ In u (s_users old)).
Proof. exact merge_server_only_set. Qed.
Print Assumptions C20_merge_server_only_set.

Theorem C20_merge_server_idempotent : forall old patch,
  merge_server (merge_server old patch) patch = merge_server old patch.
Proof. exact merge_server_idempotent. Qed.
Print Assumptions C20_merge_server_idempotent.

Theorem C20_merge_client_only_set : forall old patch : client_cfg,
  let r := merge_client old patch in
  takes_b (c_active r) (c_active patch) (c_active old) /\
  takes (c_rpc r) (c_rpc patch) (c_rpc old) /\
  takes_z (c_socks5 r) (c_socks5 patch) (c_socks5 old) /\
  takes (c_adv r) (c_adv patch) (c_adv old) /\
  takes_z (c_log r) (c_log patch) (c_log old) /\
  takes (c_s5lan r) (c_s5lan patch) (c_s5lan old) /\
  takes (c_http r) (c_http patch) (c_http old) /\
  takes (c_httplan r) (c_httplan patch) (c_httplan old) /\
  takes (c_auth r) (c_auth patch) (c_auth old) /\
  (forall name, find_last pname name (c_profiles r) =
                match find_last pname name (c_profiles patch) with
                | Some p => Some p
                | None => find_last pname name (c_profiles old)
                end) /\
  names_sorted pname (c_profiles r) /\
  (forall p, In p (c_profiles r) -> In p (c_profiles patch) \/ In p (c_profiles old)).
Proof. exact merge_client_only_set. Qed.
Print Assumptions C20_merge_client_only_set.

Theorem C20_merge_client_idempotent : forall old patch,
  merge_client (merge_client old patch) patch = merge_client old patch.
Proof. exact merge_client_idempotent. Qed.
Print Assumptions C20_merge_client_idempotent.

(* for every hash function and every user list: after HashUserPasswords(users, false) no user carries a
   non-empty plaintext password; a user that had one gets H(pw || 0 || name); everything else is untouched *)
Theorem C20_no_plaintext : forall (H : bytes -> bytes) (us : list user),
  Forall no_plaintext (hash_users H false us) /\
  Forall2 (hashed_from H false) us (hash_users H false us).
Proof. exact hash_users_no_plaintext. Qed.
Print Assumptions C20_no_plaintext.

(* ... in particular whatever ApplyJSONServerConfig loads and merges, what it writes has no plaintext password,
   and storing changes nothing but the users' password fields *)
Theorem C20_apply_then_store_no_plaintext : forall (H : bytes -> bytes) old patch,
  Forall no_plaintext (s_users (store_server H (merge_server old patch))) /\
  (let c := merge_server old patch in
   let w := store_server H c in
   s_ports w = s_ports c /\ s_adv w = s_adv c /\ s_log w = s_log c /\ s_mtu w = s_mtu c /\
   s_egress w = s_egress c /\ s_dns w = s_dns c /\ s_tp w = s_tp c /\
   Forall2 (hashed_from H false) (s_users c) (s_users w)).
Proof. exact apply_then_store_no_plaintext. Qed.
Print Assumptions C20_apply_then_store_no_plaintext.

(* the client store keeps the plaintext password (the client needs it) and only adds the hash *)
Theorem C20_store_client_only_adds_hash : forall (H : bytes -> bytes) c,
  let w := store_client H c in
  c_active w = c_active c /\ c_rpc w = c_rpc c /\ c_socks5 w = c_socks5 c /\ c_adv w = c_adv c /\
  c_log w = c_log c /\ c_s5lan w = c_s5lan c /\ c_http w = c_http c /\ c_httplan w = c_httplan c /\
  c_auth w = c_auth c /\
  Forall2 (fun p p' => p_name p' = p_name p /\ p_rest p' = p_rest p /\
                       match p_user p with
                       | None => p_user p' = None
                       | Some u => exists u', p_user p' = Some u' /\ hashed_from H true u u'
                       end) (c_profiles c) (c_profiles w).
Proof.
  intros H c. simpl. repeat split. apply Forall2_map_self. intro p. apply store_profile_spec.
Qed.
Print Assumptions C20_store_client_only_adds_hash.

(* mieru:// links (URLToClientConfig with fixes/C20-short-link-slice.diff): no string and no answer of
   url.Parse leads to the s[8:] panic ... *)
Theorem C20_link_parse_total : forall (s : bytes) (u : url_lib), link_guard s u <> Panic.
Proof.
  intros s u. destruct (link_guard_cases s u) as [[e E]|(p & E & _)]; rewrite E; discriminate.
Qed.
Print Assumptions C20_link_parse_total.

(* ... and what reaches the base64 decoder is exactly the text after "mieru://" *)
Theorem C20_link_payload : forall s u p,
  link_guard s u = Ok p ->
  s = s_mieru_prefix ++ p /\ ul_ok u = true /\ ul_scheme u = s_mieru /\ ul_opaque u = [].
Proof.
  intros s u p Hok. destruct (link_guard_cases s u) as [[e E]|(p' & E & Hs)]; rewrite E in Hok; [discriminate|].
  injection Hok as <-. exact Hs.
Qed.
Print Assumptions C20_link_payload.

(* the pinned commit (no guard before the slice) panics on "mieru:"; it is total only from length 8 on *)
Theorem C20_short_link_refuted_before_fix : exists s u, ul_ok u = true /\ link_guard_v0 s u = Panic.
Proof.
  exists [109; 105; 101; 114; 117; 58]%N, (mkUrl true s_mieru []). split; reflexivity.
Qed.
Print Assumptions C20_short_link_refuted_before_fix.

Theorem C20_short_link_partial_before_fix : forall s u, (8 <= length s)%nat -> link_guard_v0 s u <> Panic.
Proof.
  intros s u Hl Hp. apply link_guard_v0_panic in Hp.
  exact (Nat.lt_irrefl _ (Nat.le_lt_trans _ _ _ Hl Hp)).
Qed.
Print Assumptions C20_short_link_partial_before_fix.

(* mierus:// links (URLToClientProfile): for every answer of the URL library the importer returns a profile
   or an error; protocolList[idx] is never out of range *)
Theorem C20_simple_link_parse_total : forall u : surl_lib, simple_link u <> Panic.
Proof.
  intros u Hp. apply simple_link_panic in Hp. destruct Hp as [Hp Hl].
  exact (parse_url_ports_no_panic _ _ 0 [] Hl Hp).
Qed.
Print Assumptions C20_simple_link_parse_total.

(* a port range string is accepted by FlatPortBindings iff it is <digits>-<digits> with 1 <= a <= b <= 65535 *)
Theorem C20_port_range_valid_iff : forall s a b,
  parse_port_range s = Some (a, b) <-> port_range_spec s a b.
Proof. exact parse_port_range_iff. Qed.
Print Assumptions C20_port_range_valid_iff.

(* ports and ranges accepted by the link importer are within 1..65535 and ordered *)
Theorem C20_url_ports_in_range : forall s,
  (forall p, parse_url_port s = inl (UPort p) -> (1 <= p <= 65535)%Z) /\
  (forall a b, parse_url_port s = inl (URange a b) -> (1 <= a <= 65535)%Z /\ (1 <= b <= 65535)%Z /\ (a <= b)%Z).
Proof.
  intro s. split.
  - intros p Hp. exact (parse_url_port_in_range s (UPort p) Hp).
  - intros a b Hp. exact (parse_url_port_in_range s (URange a b) Hp).
Qed.
Print Assumptions C20_url_ports_in_range.

(* what the code guarantees when two VALIDATED server configurations are merged: the patch-level validity
   always survives; full validity survives unless the patch carries a non-nil empty portBindings list *)
Theorem C20_validated_merge_validated : forall old patch,
  (validate_server_patch old = 0%N -> validate_server_patch patch = 0%N ->
   validate_server_patch (merge_server old patch) = 0%N) /\
  (validate_full_server old = 0%N -> validate_server_patch patch = 0%N -> s_ports patch <> Some [] ->
   validate_full_server (merge_server old patch) = 0%N).
Proof.
  intros old patch. split; [apply merge_server_patch_valid|].
  intros Ho Hp Hne. apply validate_full_server_ok in Ho. destruct Ho as [Ho Hports].
  apply validate_full_server_ok. split; [apply merge_server_patch_valid; assumption|].
  unfold merge_server; cbn [s_ports]. destruct (s_ports patch) as [[|b l]|]; simpl; [congruence | discriminate | exact Hports].
Qed.
Print Assumptions C20_validated_merge_validated.

(* witness: the merge takes the patch's empty list and the result has no port binding (code 10);
   ApplyJSONServerConfig re-validates after the merge and rejects it *)
Theorem C20_validated_merge_empty_ports_refuted :
  validate_full_server ex_full_old = 0%N /\ validate_server_patch ex_empty_ports_patch = 0%N /\
  validate_full_server (merge_server ex_full_old ex_empty_ports_patch) = 10%N.
Proof. vm_compute. auto. Qed.
Print Assumptions C20_validated_merge_empty_ports_refuted.

(* client: patch-level validity survives; a patch that leaves activeProfile / rpcPort / socks5Port / httpProxyPort
   alone keeps a valid configuration valid *)
Theorem C20_validated_merge_client_validated : forall old patch,
  (validate_client_patch old = 0%N -> validate_client_patch patch = 0%N ->
   validate_client_patch (merge_client old patch) = 0%N) /\
  (validate_full_client old = 0%N -> validate_client_patch patch = 0%N ->
   c_active patch = None -> c_rpc patch = None -> c_socks5 patch = None -> c_http patch = None ->
   validate_full_client (merge_client old patch) = 0%N).
Proof.
  intros old patch. split; [apply merge_client_patch_valid|].
  intros Ho Hp Ha Hr Hs Hh. apply validate_full_client_ok in Ho. destruct Ho as (Ho & Ea & Ex & Hports).
  apply validate_full_client_ok. unfold merge_client; cbn [c_profiles c_active c_rpc c_socks5 c_http].
  rewrite Ha, Hr, Hs, Hh. cbn [orelse getb getz].
  (* the active profile is still there: the merge drops no name *)
  repeat split; [apply merge_client_patch_valid; assumption | exact Ea | apply merge_by_name_keeps_name, Ex | exact Hports].
Qed.
Print Assumptions C20_validated_merge_client_validated.

(* ... but in general a VALID client configuration merged with a VALID patch is INVALID: the patch validator looks
   neither at the ports (socks5Port 70000) nor at the active profile (one that does not exist);
   applyClientConfig re-validates the result *)
Theorem C20_validated_merge_client_full_refuted :
  validate_full_client ex_client = 0%N /\
  validate_client_patch ex_bad_port_patch = 0%N /\
  validate_full_client (merge_client ex_client ex_bad_port_patch) = 57%N /\
  validate_client_patch ex_bad_active_patch = 0%N /\
  validate_full_client (merge_client ex_client ex_bad_active_patch) = 55%N.
Proof. vm_compute. auto 10. Qed.
Print Assumptions C20_validated_merge_client_full_refuted.

(* storing a validated server configuration: the model's store has no error branch, and what is written is again
   a valid configuration (so it can be reloaded and started) without a plaintext password; premise: the hash
   output is never the empty string *)
Theorem C20_validated_store_total : forall (H : bytes -> bytes), (forall x, H x <> []) -> forall c,
  validate_full_server c = 0%N ->
  validate_full_server (store_server H c) = 0%N /\ Forall no_plaintext (s_users (store_server H c)).
Proof.
  intros H H_nonempty c Hv. split; [|apply store_server_clean].
  apply validate_full_server_ok in Hv. destruct Hv as [Hp Hports].
  apply validate_full_server_ok. split; [apply store_server_patch_valid; assumption | exact Hports].
Qed.
Print Assumptions C20_validated_store_total.

(* export then import of a mierus:// link (exporter with /repo's fix "share link export uses the port of a binding
   that has both a port and a port range"): for every validated profile and every server of it, if the exporter produces a link the
   importer returns the part of the profile a link carries.  The premises are all about library code: itoa/atoi,
   base64 emptiness, non-empty enum names; the transport of user, password, host and query values by
   url.String/url.Parse and of enum numbers by the name tables is what link_as_parsed assumes.
   "export_server = Some f" requires a non-empty password (export_server_some): a hash-only profile cannot be
   shared as a link. *)
Theorem C20_validated_link_roundtrip :
  forall (itoa : Z -> bytes) (b64 : bytes -> bytes) (mux_name hs_name : Z -> bytes),
  (forall n, (- 2 ^ 31 <= n < 2 ^ 31)%Z -> atoi (itoa n) = Some n) ->
  (forall x, b64 x = [] <-> x = []) ->
  (forall v, mux_name v <> []) -> (forall v, hs_name v <> []) ->
  forall p s f,
  validate_profile p = 0%N -> In s (p_servers p) ->
  export_server p s = Some f ->
  simple_link (link_as_parsed itoa b64 mux_name hs_name f) = Ok (simple_view p s f).
Proof.
  intros itoa b64 mux_name hs_name Hitoa Hb64 Hmux Hhs p s f Hv Hin.
  destruct (validate_profile_server p s Hv Hin) as [Hm Hf]. apply export_import; assumption.
Qed.
Print Assumptions C20_validated_link_roundtrip.

(* the exporter of the pinned commit failed on a validated profile with a binding {port, garbage range}:
   FlatPortBindings looks at the port, [export_server_v0] wrote the range text, which the importer refuses *)
Theorem C20_validated_link_roundtrip_refuted_before_fix :
  validate_profile ex_ambiguous_profile = 0%N /\
  exists s f, In s (p_servers ex_ambiguous_profile) /\ export_server_v0 ex_ambiguous_profile s = Some f /\
    forall itoa b64 mn hn, simple_link (link_as_parsed itoa b64 mn hn f) = Err 14.
Proof.
  split; [vm_compute; reflexivity|].
  eexists. eexists. split; [left; reflexivity|]. split; [vm_compute; reflexivity|].
  intros. vm_compute. reflexivity.
Qed.
Print Assumptions C20_validated_link_roundtrip_refuted_before_fix.

(* a rejected operation (malformed text, invalid patch, patch whose merge fails the full validation, no file) at
   any point of any history leaves the stored configuration AND every later observation unchanged *)
Theorem C20_rejected_apply_is_noop : forall (H : bytes -> bytes) h1 o h2 s,
  is_rejected (snd (step H (fst (run_outs H s h1)) o)) = true ->
  fst (run_outs H s (h1 ++ o :: h2)) = fst (run_outs H s (h1 ++ h2)) /\
  exists c, snd (run_outs H s (h1 ++ o :: h2)) =
            snd (run_outs H s h1) ++ Rejected c :: snd (run_outs H (fst (run_outs H s h1)) h2) /\
            snd (run_outs H s (h1 ++ h2)) =
            snd (run_outs H s h1) ++ snd (run_outs H (fst (run_outs H s h1)) h2).
Proof. exact rejected_apply_is_noop. Qed.
Print Assumptions C20_rejected_apply_is_noop.

(* Load / GetJSON return exactly what is stored and store nothing; after a write that reported w they return w *)
Theorem C20_load_returns_stored : forall (H : bytes -> bytes) s o,
  let s' := fst (step H s o) in
  step H s' OpLoad = (s', match s' with Some c => Accepted (Some c) | None => Rejected 101 end) /\
  step H s' OpGetJSON = step H s' OpLoad /\
  (forall w, snd (step H s o) = Accepted w -> s' = w) /\
  (match o with OpLoad | OpGetJSON => s' = s | _ => True end).
Proof. exact load_returns_stored. Qed.
Print Assumptions C20_load_returns_stored.

(* over every history: no plaintext password in the file or in anything returned *)
Theorem C20_history_no_plaintext : forall (H : bytes -> bytes) h s, store_clean s ->
  store_clean (fst (run_outs H s h)) /\ Forall out_clean (snd (run_outs H s h)).
Proof. exact history_no_plaintext. Qed.
Print Assumptions C20_history_no_plaintext.

(* a validated user name is 1..MaxUserNameLen BYTES long, which is the precondition of the user-hint computation
   (cipher.addUserHintToNonce / CheckUserFromHint panic otherwise); the whole name is hashed *)
Theorem C20_validated_name_fits_hint : forall prefix, blen prefix = NoncePrefixLenForUserHint ->
  (forall u, validate_user u = 0%N -> hint_input (uname u) prefix = Ok (uname u ++ prefix)) /\
  (forall p, validate_profile p = 0%N -> hint_input (uname (puser p)) prefix = Ok (uname (puser p) ++ prefix)).
Proof. exact validated_name_fits_hint. Qed.
Print Assumptions C20_validated_name_fits_hint.
